(* Conditions: == is symmetric, where < is defined, and the two facts about the Pratt loop (when it stops, what one turn does)
   that the round-trip proofs of CondParen_Proofs.v are built from. *)
From LiquidVerif Require Import Prelude PyPrims Cond CondPrint.

Lemma num_eqb_sym m1 e1 m2 e2 : num_eqb m1 e1 m2 e2 = num_eqb m2 e2 m1 e1.
Proof. unfold num_eqb. apply Z.eqb_sym. Qed.

Fixpoint py_eq_sym (a : val) : forall b, py_eq a b = py_eq b a.
Proof.
  destruct a as [| |x|x|m e|s|l|d|a1 b1| |]; intros [| |y|y|m' e'|s'|l'|d'|a2 b2| |]; cbn [py_eq]; try reflexivity;
    try apply Z.eqb_sym; try apply num_eqb_sym; try (destruct x, y; reflexivity).
  - destruct (str_eqb_spec s s'), (str_eqb_spec s' s); congruence.
  - revert l'. induction l as [|u l IH]; intros [|w l']; try reflexivity.
    rewrite (py_eq_sym u w), IH. reflexivity.
  - revert d'. induction d as [|[k u] d IH]; intros [|[k' w] d']; try reflexivity.
    rewrite (py_eq_sym u w), IH.
    destruct (str_eqb_spec k k'), (str_eqb_spec k' k); try congruence; reflexivity.
  - rewrite (Z.eqb_sym a1 a2), (Z.eqb_sym b1 b2).
    rewrite (andb_comm (range_len a1 b1 =? 0)%Z). reflexivity.
Qed.

(* ordering: defined for two strings and for two numbers, false when a boolean is involved, a Liquid type error otherwise *)
Definition is_number (v : val) : bool := match v with VInt _ | VDec _ _ => true | _ => false end.
Definition is_string (v : val) : bool := match v with VStr _ => true | _ => false end.
Definition is_boolean (v : val) : bool := match v with VBool _ => true | _ => false end.

Theorem liq_lt_spec a b :
  (is_string a && is_string b = true -> exists r, liq_lt a b = Ok r) /\
  (is_number a && is_number b = true -> exists r, liq_lt a b = Ok r) /\
  (is_boolean a || is_boolean b = true -> is_string a && is_string b = false -> liq_lt a b = Ok false) /\
  (is_string a && is_string b = false -> is_number a && is_number b = false -> is_boolean a || is_boolean b = false ->
   liq_lt a b = Err EType).
Proof.
  repeat split.
  - destruct a; try discriminate. destruct b; try discriminate. eexists. reflexivity.
  - destruct a; try discriminate; destruct b; try discriminate; eexists; reflexivity.
  - destruct a, b; try reflexivity; discriminate.
  - destruct a, b; try reflexivity; discriminate.
Qed.

(* ---- the Pratt loop: when it stops, and what one turn does ---- *)
Definition is_infix (t : tok) : bool := match t with TAnd | TOr | TOp _ => true | _ => false end.

Lemma mk_infix_none t l r : is_infix t = false -> mk_infix t l r = None.
Proof. destruct t; cbn; intro; try reflexivity; discriminate. Qed.

(* 2 = prec TAnd = prec TOr; 5 = the lowest binding power of a comparison *)
Lemma prec_op op : 5 <= prec (TOp op).
Proof. destruct op; cbn; lia. Qed.

Lemma infix_prec t : is_infix t = true -> 2 <= prec t.
Proof. destruct t; intro H; try discriminate H; [exact (le_n 2)|exact (le_n 2)|]. pose proof (prec_op op). lia. Qed.

Definition stops (p : nat) (rest : list tok) : Prop :=
  match rest with [] => True | t :: _ => prec t < p \/ is_infix t = false end.
(* at any binding power: what follows the operand of `not` *)
Definition stops1 (rest : list tok) : Prop :=
  match rest with [] => True | t :: _ => is_infix t = false end.

Lemma ploop_stop rec p g left rest : stops p rest -> ploop rec p (S g) left rest = Ok (left, rest).
Proof.
  intro H. destruct rest as [|t r]; [reflexivity|]. cbn [ploop].
  destruct (Nat.ltb_spec (prec t) p); [reflexivity|].
  destruct H as [H|H]; [lia|]. rewrite mk_infix_none by exact H. reflexivity.
Qed.

(* one turn of the loop: the infix token t is taken and its right operand read at the binding power of t *)
Lemma ploop_step rec p g left t r y rest' e :
  p <= prec t -> rec (prec t) r = Ok (y, rest') -> mk_infix t left y = Some e ->
  ploop rec p (S g) left (t :: r) = ploop rec p g e rest'.
Proof.
  intros Hp Hr He. cbn [ploop].
  destruct (Nat.ltb_spec (prec t) p); [lia|].
  assert (Hsome : exists e0, mk_infix t left left = Some e0) by (destruct t; try discriminate He; cbn; eauto).
  destruct Hsome as [e0 ->]. rewrite Hr. cbn [bind fst snd]. rewrite He. reflexivity.
Qed.

Lemma pp_S fl f p ts : pp fl (S f) p ts = do x <- primary (pp fl f) fl ts; ploop (pp fl f) p f (fst x) (snd x).
Proof. reflexivity. Qed.

Lemma stops_le p q rest : stops p rest -> p <= q -> stops q rest.
Proof. destruct rest as [|t r]; cbn; [trivial|]. intros [H|H] Hpq; [left; lia|right; exact H]. Qed.

Lemma stops_low p rest : stops p rest -> p <= 2 -> stops1 rest.
Proof.
  destruct rest as [|t r]; cbn; [trivial|]. intros [H|H] Hp; [|exact H].
  destruct (is_infix t) eqn:E; [|reflexivity]. pose proof (infix_prec t E). lia.
Qed.

Lemma stops1_any p rest : stops1 rest -> stops p rest.
Proof. destruct rest; cbn; [trivial|]. intro H. right. exact H. Qed.

Fixpoint size (e : bexpr) : nat :=
  match e with
  | BLit _ | BVar _ => 1
  | BNot a => S (size a)
  | BAnd a b | BOr a b | BCmp _ a b => S (size a + size b)
  end.

Definition body (e : bexpr) : list tok :=
  match e with
  | BLit v => [TLit v]
  | BVar x => [TVar x]
  | BNot a => TNot :: pr CRight a
  | BAnd a b => pr CLeft a ++ TAnd :: pr CRight b
  | BOr a b => pr CLeft a ++ TOr :: pr CRight b
  | BCmp op a b => pr COperand a ++ TOp op :: pr COperand b
  end.

Lemma pr_body c e : pr c e = wrap (wraps c e) (body e).
Proof. destruct e; reflexivity. Qed.

Lemma pr_right e : pr CRight e = body e.
Proof. rewrite pr_body. reflexivity. Qed.

Lemma wrap_length b l : length l <= length (wrap b l).
Proof. destruct b; cbn [wrap length]; rewrite ?app_length; lia. Qed.

Lemma pr_length c e : size e <= length (pr c e).
Proof.
  revert c. induction e as [v|x|a IHa|a IHa b IHb|a IHa b IHb|op a IHa b IHb]; intro c; rewrite pr_body;
    (etransitivity; [|apply wrap_length]); cbn [body size length]; rewrite ?app_length; cbn [length].
  - lia.
  - lia.
  - specialize (IHa CRight). lia.
  - specialize (IHa CLeft). specialize (IHb CRight). lia.
  - specialize (IHa CLeft). specialize (IHb CRight). lia.
  - specialize (IHa COperand). specialize (IHb COperand). lia.
Qed.

(* and/or chains group from the right *)
Fixpoint chain (first : bexpr) (rest : list (bool * bexpr)) : bexpr :=
  match rest with
  | [] => first
  | (is_and, x) :: r => if is_and then BAnd first (chain x r) else BOr first (chain x r)
  end.

Definition atom (e : bexpr) : Prop := match e with BLit _ | BVar _ => True | _ => False end.

Fixpoint chain_toks (first : bexpr) (rest : list (bool * bexpr)) : list tok :=
  body first ++ match rest with
                | [] => []
                | (is_and, x) :: r => (if is_and then TAnd else TOr) :: chain_toks x r
                end.
