(* Lex_Occ_Proofs.v — the C10/C11 statements under the occurrence guard [no_collision_occ] of LexOcc.v, each obtained
   by unpacking the guard and applying [render_template] of Lex_C10_Proofs.v: whole templates, a single text, a single
   markup. *)
From Coq Require Import ZifyBool.
From LiquidVerif Require Import Prelude Lex LexSpec Lex_Proofs Lex_Match_Proofs Lex_C10_Proofs LexOcc.
Import ListNotations.
Arguments hy : simpl never.
Arguments nl : simpl never.
Arguments hash : simpl never.
Arguments lbrace : simpl never.

Lemma nomatch_find_first {A} (f : str -> option (A * nat)) y after a n :
  nomatch f y after = true -> f after = Some (a, n) ->
  find_first f (y ++ after) = Some (length y, a, length y + n).
Proof. apply find_first_nomatch. Qed.

Theorem whitespace_control : forall d tp, no_collision_occ d tp = true ->
  render_src d (build d tp) = ROut (spec_render tp).
Proof.
  intros d [segs tail] H. unfold no_collision_occ in H. cbn [fst snd] in H.
  apply andb_true_iff in H as [Hd Hwf]. apply render_template; auto.
Qed.

(* C11 part 1 under the occurrence guard *)
Theorem delimiter_equivariance_occ : forall d1 d2 tp,
  no_collision_occ d1 tp = true -> no_collision_occ d2 tp = true ->
  render_src d1 (build d1 tp) = render_src d2 (build d2 tp).
Proof. intros. rewrite !whitespace_control; auto. Qed.

(* every template admitted by the alphabet guard is admitted by the occurrence guard *)
Theorem no_collision_occ_of_alphabet : forall d tp, no_collision d tp = true -> no_collision_occ d tp = true.
Proof.
  intros d [segs tail] H. unfold no_collision in H. cbn [fst snd] in H.
  apply andb_true_iff in H as [H Htail]. apply andb_true_iff in H as [Hd Hwf].
  unfold no_collision_occ. cbn [fst snd]. rewrite Hd. cbn [andb].
  apply wf_segs_occ_of_wf; auto. apply d_ok_facts; auto.
Qed.

(* a local reading of the text guard: what [clean] demands, position by position *)
Lemma clean_spec d t after : clean d t after = true <->
  (forall j, j < length t -> delim_at d (skipn j (t ++ after)) = None).
Proof.
  split.
  - intros H j Hj. apply nomatch_at; auto.
  - apply nomatch_intro.
Qed.

(* text verbatim, under the occurrence guard: any text in which no opening delimiter occurs *)
Lemma text_verbatim_occ d t : d_ok d = true -> clean d t [] = true -> render_src d t = ROut t.
Proof.
  intros Hd Ht. change t with (build d ([], t)) at 1.
  rewrite whitespace_control; [reflexivity|]. unfold no_collision_occ. cbn [fst snd wf_segs_occ]. rewrite Hd, Ht. reflexivity.
Qed.

Lemma one_markup_occ d t1 m t2 : no_collision_occ d ([(t1, m)], t2) = true ->
  render_src d (t1 ++ msrc d m ++ t2)
  = ROut (strip_text false (opens m) t1 ++ mout m ++ strip_text (closes m) false t2).
Proof.
  intros H. pose proof (whitespace_control d ([(t1, m)], t2) H) as E.
  unfold build, spec_render in E. cbn [fst snd build_segs spec_from] in E.
  rewrite <- !app_assoc, app_nil_l in E. cbn [app] in E. exact E.
Qed.

Lemma raw_verbatim_occ d t1 l1 w1 w2 r1 body l2 w3 w4 r2 t2 :
  no_collision_occ d ([(t1, MkRaw l1 w1 w2 r1 body l2 w3 w4 r2)], t2) = true ->
  render_src d (t1 ++ msrc d (MkRaw l1 w1 w2 r1 body l2 w3 w4 r2) ++ t2)
  = ROut (strip_text false l1 t1 ++ body ++ strip_text r2 false t2).
Proof. intros H. apply (one_markup_occ d t1 _ t2 H). Qed.

Lemma comments_silent_occ d t1 m t2 : silent m = true -> no_collision_occ d ([(t1, m)], t2) = true ->
  render_src d (t1 ++ msrc d m ++ t2) = ROut (strip_text false (opens m) t1 ++ strip_text (closes m) false t2).
Proof. intros Hs H. rewrite (one_markup_occ d t1 m t2 H). destruct m; try discriminate; reflexivity. Qed.
