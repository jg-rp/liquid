(* Expressions: parsing the serialisation gives the tree back -- primitives (literals, paths, ranges), filters with their
   arguments, ternaries.  Every layer is stated with an arbitrary text following it, constrained by what may follow, each
   predicate implying the next: fend (last filter) -fend_ffollow-> ffollow (filter) -ffollow_sep-> sep_head (argument)
   -sep_follow-> follow_ok (primitive) -follow_rest_ok-> rest_ok (path). *)
From LiquidVerif Require Import Prelude PyPrims Cond CondPrint Cond_Proofs CondParen CondParen_Proofs StrLit PathSyntax PathSyntax_Proofs ExprSyntax.

(* ---- small list facts ---- *)
Lemma skipn_suffix {A B} (a : list A) (b : list A) (b' : list B) :
  length b' = length b -> skipn (length (a ++ b) - length b') (a ++ b) = b.
Proof. intro H. rewrite app_length, H, Nat.add_sub, skipn_app, skipn_all, Nat.sub_diag. reflexivity. Qed.

(* a comma-separated list is its first item followed by `, item` for each of the others *)
Lemma join_flat {A} (pr : A -> list etok) a l :
  join [EComma] (map pr (a :: l)) = pr a ++ flat_map (fun x => EComma :: pr x) l.
Proof.
  revert a. induction l as [|b l IH]; intro a; [cbn; rewrite app_nil_r; reflexivity|].
  change (join [EComma] (map pr (a :: b :: l))) with (pr a ++ [EComma] ++ join [EComma] (map pr (b :: l))). rewrite IH. reflexivity.
Qed.

Lemma commas_length {A} (pr : A -> list etok) l : length l <= length (flat_map (fun x => EComma :: pr x) l).
Proof. induction l as [|a l IH]; [cbn; lia|]. cbn [flat_map length app]. rewrite app_length. lia. Qed.

(* the two copies of the well-formedness of paths are the same function *)
Lemma wfl_same l : ExprSyntax.wfl l = PathSyntax_Proofs.wfl l.
Proof. reflexivity. Qed.

(* ---- induction on segments through nested paths ---- *)
Fixpoint seg_ind' (P : seg -> Prop) (Hn : forall s, P (SName s)) (Hi : forall z, P (SIdx z))
  (Hs : forall p, Forall P p -> P (SNested p)) (g : seg) : P g :=
  match g with
  | SName s => Hn s
  | SIdx z => Hi z
  | SNested p => Hs p ((fix go (l : list seg) : Forall P l :=
                          match l with [] => Forall_nil _ | x :: r => Forall_cons _ (seg_ind' P Hn Hi Hs x) (go r) end) p)
  end.

(* what may follow a path: the end, or a token that cannot continue one;  the tokens a primitive / a path can begin with *)
Definition follow_ok (rest : list etok) : Prop := match rest with [] => True | t :: _ => to_ptok t = POther end.
Definition pstart (t : etok) : bool :=
  match t with
  | EWord _ | EIdentStr _ | ELBr | EInt _ | EFloat _ | EStr _ | ETrue | EFalse | EEmpty | EBlank | ERangeL => true
  | _ => false
  end.
Definition path_start (t : etok) : bool := match t with EWord _ | EIdentStr _ | ELBr => true | _ => false end.
Definition no_colon (ts : list etok) : bool := forallb (fun t => negb (is_colon (Some t))) ts.

Lemma word_tok_word s : is_kw s = false -> word_tok s = EWord s.
Proof. unfold is_kw, word_tok. destruct (alookup s kw_table); [discriminate|reflexivity]. Qed.

(* a filter, argument or alias name is written as a word *)
Lemma word_tok_name s : wf_name s = true -> word_tok s = EWord s.
Proof. intro H. apply word_tok_word, negb_true_iff, H. Qed.

(* no keyword of the table is lexed as a colon *)
Lemma word_tok_not_colon s : is_colon (Some (word_tok s)) = false.
Proof.
  unfold word_tok. destruct (alookup s kw_table) as [t|] eqn:E; [|reflexivity].
  apply negb_true_iff. exact (alookup_forallb (fun t => negb (is_colon (Some t))) s kw_table t eq_refl E).
Qed.

Lemma of_ptok_not_colon t : is_colon (Some (of_ptok t)) = false.
Proof. destruct t; try reflexivity. apply word_tok_not_colon. Qed.

Lemma map_of_ptok_no_colon l : no_colon (map of_ptok l) = true.
Proof. induction l as [|x r IH]; [reflexivity|]. cbn [map no_colon forallb]. rewrite of_ptok_not_colon. exact IH. Qed.

Lemma no_colon_app a b : no_colon (a ++ b) = no_colon a && no_colon b.
Proof. unfold no_colon. apply forallb_app. Qed.

(* the second token is no colon: what begins so is taken neither for a keyword argument nor for a cycle group *)
Lemma hd_tl_not_colon a rest : a <> [] -> no_colon a = true -> is_colon (hd_tok rest) = false ->
  is_colon (hd_tok (tl (a ++ rest))) = false.
Proof.
  intros Hne Hn Hr. destruct a as [|x a]; [congruence|]. cbn [app tl]. destruct a as [|y a]; [exact Hr|].
  cbn [no_colon forallb] in Hn. apply andb_true_iff in Hn. destruct Hn as [_ Hn]. apply andb_true_iff in Hn. destruct Hn as [Hy _].
  cbn [app hd_tok hd_error]. destruct (is_colon (Some y)); [discriminate|reflexivity].
Qed.

Lemma hd_not_colon a rest : no_colon a = true -> is_colon (hd_tok rest) = false -> is_colon (hd_tok (a ++ rest)) = false.
Proof.
  intros Hn Hr. destruct a as [|x a]; [exact Hr|]. cbn [no_colon forallb] in Hn. apply andb_true_iff in Hn. destruct Hn as [Hx _].
  cbn. destruct x; try reflexivity; discriminate.
Qed.

Section RoundTrip.
  Variable is_prop : str -> bool.
  Hypothesis is_prop_not_kw : forall s, is_prop s = true -> is_kw s = false.
  Local Notation print_seg := (PathSyntax.print_seg is_prop).
  Local Notation print_segs := (PathSyntax.print_segs is_prop).
  Local Notation print_path := (PathSyntax.print_path is_prop).
  Local Notation print_prim := (ExprSyntax.print_prim is_prop).

  (* every word the path serialiser writes bare is a word for the lexer *)
  Definition okp (t : ptok) : Prop := match t with PWord s => is_kw s = false | POther => False | _ => True end.

  Lemma okp_segs l : Forall (fun g => forall first, Forall okp (print_seg first g)) l -> forall first, Forall okp (print_segs first l).
  Proof.
    induction 1 as [|x r Hx _ IH]; intro first; [constructor|]. cbn [PathSyntax.print_segs]. apply Forall_app. split; [apply Hx|apply IH].
  Qed.

  Lemma okp_seg g : forall first, Forall okp (print_seg first g).
  Proof.
    induction g as [s|z|p IH] using seg_ind'; intro first.
    - cbn [PathSyntax.print_seg]. destruct (is_prop s) eqn:E.
      + destruct first; repeat constructor; apply is_prop_not_kw, E.
      + repeat constructor.
    - repeat constructor.
    - rewrite print_nested_first. constructor; [exact I|]. apply Forall_app. split; [apply okp_segs, IH|repeat constructor].
  Qed.

  Lemma okp_path first l : Forall okp (print_segs first l).
  Proof. apply okp_segs. apply Forall_forall. intros g _. apply okp_seg. Qed.

  Lemma to_of_ptok l : Forall okp l -> map to_ptok (map of_ptok l) = l.
  Proof.
    induction 1 as [|t r Ht _ IH]; [reflexivity|]. cbn [map]. rewrite IH. f_equal.
    destruct t; try reflexivity; cbn in Ht. cbn [of_ptok]. rewrite word_tok_word by exact Ht. reflexivity.
  Qed.

  Lemma follow_rest_ok rest : follow_ok rest -> rest_ok (map to_ptok rest).
  Proof. destruct rest as [|t r]; cbn; [trivial|]. intro H. rewrite H. exact I. Qed.

  (* Path.parse reads back what Path.__str__ writes, whatever non-path token follows *)
  Lemma path_e_roundtrip l rest : l <> [] -> ExprSyntax.wfl l = true -> follow_ok rest ->
    parse_path_e (map of_ptok (print_path l) ++ rest) = Ok (l, rest).
  Proof.
    intros Hne Hwf Hf. unfold parse_path_e.
    rewrite map_app, (to_of_ptok (print_path l) (okp_path true l)).
    replace (length (map of_ptok (print_path l) ++ rest)) with (length (print_path l ++ map to_ptok rest))
      by (rewrite !app_length, !map_length; reflexivity).
    rewrite (path_roundtrip is_prop l (map to_ptok rest) Hne Hwf (follow_rest_ok rest Hf)).
    cbn [bind fst snd]. f_equal. f_equal.
    replace (length (print_path l ++ map to_ptok rest)) with (length (map of_ptok (print_path l) ++ rest))
      by (rewrite !app_length, !map_length; reflexivity).
    apply skipn_suffix. apply map_length.
  Qed.

  (* a single word is a path of one name *)
  Lemma word_path s rest : follow_ok rest -> parse_path_e (EWord s :: rest) = Ok ([SName s], rest).
  Proof.
    intro Hf. unfold parse_path_e. cbn [map to_ptok length PathSyntax.parse_path].
    assert (Hw : is_word (hd_error (map to_ptok rest)) = false) by (destruct rest as [|t r]; [reflexivity|]; cbn [map hd_error]; cbn [follow_ok] in Hf; rewrite Hf; reflexivity).
    rewrite Hw. destruct rest as [|t r].
    - cbn. reflexivity.
    - cbn [map length PathSyntax.parse_path]. cbn in Hf. rewrite Hf. cbn [bind fst snd rev app length].
      replace (S (S (length r)) - S (length (map to_ptok r))) with 1 by (rewrite map_length; lia). reflexivity.
  Qed.

  Lemma wf_path_inv l : wf_path l = true -> l <> [] /\ ExprSyntax.wfl l = true /\
    exists t r, map of_ptok (print_path l) = t :: r /\ path_start t = true.
  Proof.
    intro H. destruct l as [|g l]; [discriminate|]. split; [discriminate|].
    destruct g as [s|z|p]; [| discriminate |]; (split; [exact H|]).
    - unfold PathSyntax.print_path. cbn [PathSyntax.print_segs PathSyntax.print_seg]. destruct (is_prop s) eqn:E.
      + cbn [app map of_ptok]. rewrite word_tok_word by (apply is_prop_not_kw, E). eexists _, _. split; reflexivity.
      + cbn [app map of_ptok]. eexists _, _. split; reflexivity.
    - unfold PathSyntax.print_path. cbn [PathSyntax.print_segs]. rewrite print_nested_first. cbn [app map of_ptok]. eexists _, _. split; reflexivity.
  Qed.

  Lemma parse_prim_path f ts : path_start (hd ENil ts) = true ->
    parse_prim (S f) ts = do x <- parse_path_e ts; Ok (PPath (fst x), snd x).
  Proof. destruct ts as [|[] r]; cbn [hd path_start]; intro H; try discriminate; reflexivity. Qed.

  (* the fuel parse_prim needs: how deep the range literals nest *)
  Fixpoint need (p : prim) : nat := match p with PRange a b => S (Nat.max (need a) (need b)) | _ => 1 end.

  Lemma need_length p : need p <= S (length (print_prim p)).
  Proof.
    induction p as [| | | | | | | | |a IHa b IHb]; cbn [need]; try lia.
    cbn [ExprSyntax.print_prim length]. rewrite app_length. cbn [length]. rewrite app_length. cbn [length]. lia.
  Qed.

  (* parse_primitive reads back every well-formed primitive *)
  Lemma prim_roundtrip p : wf_prim p = true -> forall rest fuel, follow_ok rest -> need p <= fuel ->
    parse_prim fuel (print_prim p ++ rest) = Ok (p, rest).
  Proof.
    induction p as [z|s|s| | | | | |l|a IHa b IHb]; intros Hwf rest fuel Hf Hn; cbn [need] in Hn;
      (destruct fuel as [|f]; [lia|]); try reflexivity; try discriminate.
    - (* path *)
      cbn [wf_prim] in Hwf. destruct (wf_path_inv l Hwf) as (Hne & Hwl & t & r & Ht & Hs).
      cbn [ExprSyntax.print_prim]. rewrite parse_prim_path by (rewrite Ht; exact Hs).
      rewrite (path_e_roundtrip l rest Hne Hwl Hf). reflexivity.
    - (* range *)
      cbn [wf_prim] in Hwf. apply andb_true_iff in Hwf. destruct Hwf as [Ha Hb].
      cbn [ExprSyntax.print_prim]. cbn [app]. rewrite <- app_assoc. cbn [app]. rewrite <- app_assoc. cbn [app ExprSyntax.parse_prim].
      rewrite (IHa Ha _ f) by (cbn; trivial; lia). cbn [bind fst snd].
      rewrite (IHb Hb _ f) by (cbn; trivial; lia). reflexivity.
  Qed.

  Lemma pprim_roundtrip p rest : wf_prim p = true -> follow_ok rest -> pprim (print_prim p ++ rest) = Ok (p, rest).
  Proof.
    intros Hwf Hf. unfold pprim, pfuel. apply prim_roundtrip; [exact Hwf|exact Hf|].
    pose proof (need_length p). rewrite app_length. lia.
  Qed.

  Lemma print_prim_no_colon p : no_colon (print_prim p) = true.
  Proof.
    induction p as [| | | | | | | | l |a IHa b IHb]; try reflexivity.
    - apply map_of_ptok_no_colon.
    - cbn [ExprSyntax.print_prim]. change (ERangeL :: ?x) with ([ERangeL] ++ x). rewrite !no_colon_app, IHa. cbn [no_colon forallb is_colon negb andb].
      fold (no_colon (print_prim b ++ [ERParen])). rewrite no_colon_app, IHb. reflexivity.
  Qed.

  (* the first token of a primitive; only the literals `empty` and `blank` begin with their tokens (which are no filter tokens) *)
  Lemma print_prim_head p : wf_prim p = true -> exists t r, print_prim p = t :: r /\ pstart t = true /\
    (t = EEmpty -> p = PEmpty) /\ (t = EBlank -> p = PBlank).
  Proof.
    destruct p as [z|s|s| | | | | |l|a b]; intro H; try discriminate; try (eexists _, _; repeat split; try reflexivity; discriminate).
    cbn [wf_prim] in H. destruct (wf_path_inv l H) as (_ & _ & t & r & Ht & Hs). exists t, r. cbn [ExprSyntax.print_prim].
    repeat split; [exact Ht|destruct t; try discriminate; reflexivity| |]; intro; subst t; discriminate.
  Qed.

  (* ================= filters ================= *)
  Local Notation print_arg := (ExprSyntax.print_arg is_prop).
  Local Notation print_filter := (ExprSyntax.print_filter is_prop).
  Local Notation print_pipes := (ExprSyntax.print_pipes is_prop).
  Local Notation print_fexpr := (ExprSyntax.print_fexpr is_prop).
  Local Notation print_expr := (ExprSyntax.print_expr is_prop).

  (* what may follow an argument / a filter: a separator, or the end *)
  Definition sep_head (rest : list etok) : bool :=
    match rest with [] => true | t :: _ => match t with EComma | EPipe | EDPipe | EIf | EElse => true | _ => false end end.
  Definition ffollow (rest : list etok) : bool :=
    match rest with [] => true | t :: _ => match t with EPipe | EDPipe | EIf | EElse => true | _ => false end end.

  Lemma sep_follow rest : sep_head rest = true -> follow_ok rest.
  Proof. destruct rest as [|[] r]; cbn; intro; try discriminate; trivial. Qed.
  Lemma sep_not_filter rest : sep_head rest = true -> is_filter_tok_gen true (hd_tok rest) = false.
  Proof. destruct rest as [|[] r]; cbn; intro; try discriminate; trivial. Qed.
  Lemma sep_not_colon rest : sep_head rest = true -> is_colon (hd_tok rest) = false.
  Proof. destruct rest as [|[] r]; cbn; intro; try discriminate; trivial. Qed.
  Lemma ffollow_sep rest : ffollow rest = true -> sep_head rest = true.
  Proof. destruct rest as [|[] r]; cbn; intro; try discriminate; trivial. Qed.

  (* the turns of the argument loop of one filter: an argument, a comma, the end *)
  Lemma arg_step a rest f acc : wf_arg a = true -> sep_head rest = true ->
    parse_fargs true (S f) acc (print_arg a ++ rest) = parse_fargs true f (a :: acc) rest.
  Proof.
    intros Hwf Hs. pose proof (sep_not_filter rest Hs) as Hflt.
    destruct a as [p|k p]; cbn [wf_arg] in Hwf; apply andb_true_iff in Hwf; destruct Hwf as [H1 H2].
    - pose proof (pprim_roundtrip p rest H1 (sep_follow rest Hs)) as Hpp.
      destruct (print_prim_head p H1) as (t & r & Hp & Hst & He & Hb).
      assert (Hc : is_colon (hd_tok (tl (print_prim p ++ rest))) = false).
      { apply hd_tl_not_colon; [rewrite Hp; discriminate|apply print_prim_no_colon|apply sep_not_colon, Hs]. }
      cbn [ExprSyntax.print_arg]. rewrite Hp in Hpp, Hc |- *. cbn [app tl] in Hpp, Hc |- *.
      destruct t; try discriminate Hst;
        try (cbn [ExprSyntax.parse_fargs is_filter_tok_gen]; rewrite Hpp; cbn [bind fst snd]; rewrite Hflt; reflexivity).
      + cbn [ExprSyntax.parse_fargs]. rewrite Hc, Hpp. cbn [bind fst snd]. rewrite Hflt. reflexivity.
      + rewrite (He eq_refl) in H2. discriminate.
      + rewrite (Hb eq_refl) in H2. discriminate.
    - cbn [ExprSyntax.print_arg]. rewrite (word_tok_name k H1).
      cbn [app ExprSyntax.parse_fargs hd_tok hd_error is_colon tl].
      rewrite (pprim_roundtrip p rest H2 (sep_follow rest Hs)). cbn [bind fst snd]. rewrite Hflt. reflexivity.
  Qed.

  Lemma comma_step t r f acc : pstart t = true ->
    parse_fargs true (S f) acc (EComma :: t :: r) = parse_fargs true f acc (t :: r).
  Proof. intro H. destruct t; try discriminate H; reflexivity. Qed.

  Lemma fargs_end rest f acc : ffollow rest = true -> parse_fargs true (S f) acc rest = Ok (rev acc, rest).
  Proof. destruct rest as [|[] r]; cbn [ffollow]; intro H; try discriminate H; reflexivity. Qed.

  Lemma print_arg_head a : wf_arg a = true -> exists t r, print_arg a = t :: r /\ pstart t = true.
  Proof.
    destruct a as [p|k p]; cbn [wf_arg]; intro H; apply andb_true_iff in H; destruct H as [H1 H2].
    - destruct (print_prim_head p H1) as (t & r & Hp & Hst & _). exists t, r. split; assumption.
    - cbn [ExprSyntax.print_arg]. rewrite (word_tok_name k H1). eexists _, _. split; reflexivity.
  Qed.

  (* `, arg` takes two turns of the loop: one for the comma, one for the argument *)
  Lemma fargs_loop : forall l acc rest fuel, forallb wf_arg l = true -> ffollow rest = true -> 2 * length l < fuel ->
    parse_fargs true fuel acc (flat_map (fun a => EComma :: print_arg a) l ++ rest) = Ok (rev acc ++ l, rest).
  Proof.
    induction l as [|a l IH]; intros acc rest fuel Hwf Hff Hfu.
    - destruct fuel as [|f]; [cbn in Hfu; lia|]. rewrite app_nil_r. apply fargs_end, Hff.
    - cbn [forallb] in Hwf. apply andb_true_iff in Hwf. destruct Hwf as [Ha Hl].
      cbn [length] in Hfu. destruct fuel as [|[|f]]; try lia.
      cbn [flat_map app]. rewrite <- app_assoc.
      destruct (print_arg_head a Ha) as (t & r & Ht & Hst). rewrite Ht. cbn [app]. rewrite (comma_step t _ (S f) acc Hst).
      change (t :: r ++ ?x) with ((t :: r) ++ x). rewrite <- Ht.
      rewrite (arg_step a _ f acc Ha) by (destruct l; [apply ffollow_sep, Hff|reflexivity]).
      rewrite (IH (a :: acc) rest f Hl Hff ltac:(lia)). cbn [rev]. rewrite <- app_assoc. reflexivity.
  Qed.

  Lemma fargs_roundtrip a l rest fuel : forallb wf_arg (a :: l) = true -> ffollow rest = true -> 2 * length (a :: l) <= fuel ->
    parse_fargs true fuel [] (join [EComma] (map print_arg (a :: l)) ++ rest) = Ok (a :: l, rest).
  Proof.
    intros Hwf Hff Hfu. cbn [forallb] in Hwf. apply andb_true_iff in Hwf. destruct Hwf as [Ha Hl].
    cbn [length] in Hfu. destruct fuel as [|f]; [lia|].
    rewrite join_flat, <- app_assoc.
    rewrite (arg_step a _ f [] Ha) by (destruct l; [apply ffollow_sep, Hff|reflexivity]).
    apply (fargs_loop l [a] rest f Hl Hff). lia.
  Qed.

  Lemma args_length a l : forallb wf_arg (a :: l) = true -> 2 * length (a :: l) <= S (length (join [EComma] (map print_arg (a :: l)))).
  Proof.
    intro Hwf. rewrite join_flat, app_length. cbn [forallb] in Hwf. apply andb_true_iff in Hwf. destruct Hwf as [Ha Hl].
    destruct (print_arg_head a Ha) as (t & r & -> & _). cbn [length].
    enough (2 * length l <= length (flat_map (fun x => EComma :: print_arg x) l)) by lia.
    clear Ha. induction l as [|b l IH]; [cbn; lia|]. cbn [forallb] in Hl. apply andb_true_iff in Hl. destruct Hl as [Hb Hl].
    destruct (print_arg_head b Hb) as (t' & r' & Ht' & _). cbn [flat_map length app]. rewrite app_length, Ht'. specialize (IH Hl). cbn [length]. lia.
  Qed.

  (* the delimiters of Filter.parse: `|`, and `||` when asked for; inline in parse_filters *)
  Definition is_delim (dpipe : bool) (d : etok) : bool := match d with EPipe => true | EDPipe => dpipe | _ => false end.

  Lemma filter_step f d dpipe rest fu acc : wf_filter f = true -> is_delim dpipe d = true -> ffollow rest = true ->
    parse_filters true (S fu) dpipe acc (d :: print_filter f ++ rest) = parse_filters true fu dpipe (f :: acc) rest.
  Proof.
    intros Hwf Hd Hff. destruct f as [name args]. unfold wf_filter in Hwf. cbn [f_name f_args] in Hwf.
    apply andb_true_iff in Hwf. destruct Hwf as [Hn Ha].
    unfold ExprSyntax.print_filter. cbn [f_name f_args]. rewrite (word_tok_name name Hn).
    assert (Hdd : (match d with EPipe => true | EDPipe => dpipe | _ => false end) = true) by exact Hd.
    destruct args as [|a l].
    - cbn [app ExprSyntax.parse_filters]. rewrite Hdd. rewrite (sep_not_colon rest (ffollow_sep rest Hff)). reflexivity.
    - cbn [app ExprSyntax.parse_filters]. rewrite Hdd. cbn [hd_tok hd_error is_colon tl].
      rewrite (fargs_roundtrip a l rest _ Ha Hff).
      + reflexivity.
      + pose proof (args_length a l Ha) as Hlen. cbn [length] in Hlen |- *. rewrite app_length. lia.
  Qed.

  (* the token after the last filter is not a delimiter *)
  Definition fend (dpipe : bool) (rest : list etok) : bool :=
    match rest with [] => true | t :: _ => match t with EIf | EElse => true | EDPipe => negb dpipe | _ => false end end.
  Lemma fend_ffollow dpipe rest : fend dpipe rest = true -> ffollow rest = true.
  Proof. destruct rest as [|[] r]; cbn; intro; try discriminate; trivial. Qed.

  Lemma pipes_head fs rest : ffollow rest = true -> ffollow (print_pipes fs ++ rest) = true.
  Proof. destruct fs; intro; [assumption|reflexivity]. Qed.

  Lemma pipes_roundtrip dpipe : forall fs acc rest fuel, forallb wf_filter fs = true -> fend dpipe rest = true -> length fs < fuel ->
    parse_filters true fuel dpipe acc (print_pipes fs ++ rest) = Ok (rev acc ++ fs, rest).
  Proof.
    induction fs as [|f fs IH]; intros acc rest fuel Hwf He Hfu.
    - destruct fuel as [|fu]; [cbn in Hfu; lia|]. rewrite app_nil_r.
      destruct rest as [|[] r]; cbn [fend] in He; try discriminate He; try reflexivity.
      cbn [app ExprSyntax.parse_filters]. apply negb_true_iff in He. rewrite He. reflexivity.
    - cbn [forallb] in Hwf. apply andb_true_iff in Hwf. destruct Hwf as [Hf Hfs].
      destruct fuel as [|fu]; [lia|]. unfold ExprSyntax.print_pipes. cbn [flat_map]. fold (print_pipes fs).
      cbn [app]. rewrite <- app_assoc.
      rewrite (filter_step f EPipe dpipe _ fu acc Hf eq_refl (pipes_head fs rest (fend_ffollow dpipe rest He))).
      rewrite (IH (f :: acc) rest fu Hfs He ltac:(cbn [length] in Hfu; lia)). cbn [rev]. rewrite <- app_assoc. reflexivity.
  Qed.

  Lemma pipes_length fs : length fs <= length (print_pipes fs).
  Proof.
    induction fs as [|f fs IH]; [cbn; lia|]. unfold ExprSyntax.print_pipes. cbn [flat_map]. fold (print_pipes fs).
    cbn [length app]. rewrite app_length. lia.
  Qed.

  Lemma pfilters_roundtrip dpipe fs rest : forallb wf_filter fs = true -> fend dpipe rest = true ->
    pfilters true dpipe (print_pipes fs ++ rest) = Ok (fs, rest).
  Proof.
    intros Hwf He. unfold pfilters. apply (pipes_roundtrip dpipe fs [] rest); [exact Hwf|exact He|].
    pose proof (pipes_length fs). rewrite app_length. lia.
  Qed.

  Lemma fexpr_left e rest : wf_fexpr e = true -> ffollow rest = true ->
    pprim (print_fexpr e ++ rest) = Ok (fe_left e, print_pipes (fe_filters e) ++ rest).
  Proof.
    intros Hwf Hr. unfold wf_fexpr in Hwf. apply andb_true_iff in Hwf. destruct Hwf as [Hl _].
    unfold ExprSyntax.print_fexpr. rewrite <- app_assoc. apply pprim_roundtrip; [exact Hl|].
    apply sep_follow, ffollow_sep, pipes_head, Hr.
  Qed.

  (* ================= ternaries ================= *)
  Lemma to_ctok_cond l : map to_ctok (map ECond l) = l.
  Proof. induction l as [|x r IH]; [reflexivity|]. cbn [map to_ctok]. rewrite IH. reflexivity. Qed.

  (* what may follow the condition of a ternary *)
  Definition cfollow (rest : list etok) : bool :=
    match rest with [] => true | t :: _ => match t with EElse | EDPipe => true | _ => false end end.

  (* the condition: Cond.pp reads back what BooleanExpression.__str__ writes and stops at `else`, `||` or the end *)
  Lemma cond_roundtrip c rest : cfollow rest = true ->
    let ts := map ECond (print2 c) ++ rest in
    pp flags_on (4 * length ts + 4) 1 (map to_ctok ts) = Ok (c, map to_ctok rest) /\
    skipn (length ts - length (map to_ctok rest)) ts = rest.
  Proof.
    intros Hc ts. subst ts. split; [|apply skipn_suffix, map_length].
    rewrite map_app, to_ctok_cond. unfold print2.
    pose proof (toks_length (pq2 0 false c)) as Hl.
    rewrite (parse_toks (pq2 0 false c) (pq2_wg c 0 false) _ 1 (map to_ctok rest)).
    - rewrite pq2_erase. reflexivity.
    - rewrite app_length, map_length. unfold print2. lia.
    - apply fitsP_low. lia.
    - apply okrestP_stops1. destruct rest as [|[] r]; try discriminate Hc; reflexivity.
  Qed.

  (* TernaryFilteredExpression.parse after the condition, stage by stage: the alternative after `else`, then the tail filters after `||` *)
  Definition alt_filters (p : prim * list etok) : res (option (prim * list filter) * list etok) :=
    match snd p with
    | EPipe :: _ => do fs <- pfilters true false (snd p); Ok (Some (fst p, fst fs), snd fs)
    | _ => Ok (Some (fst p, []), snd p)
    end.
  Definition alt_stage (ts : list etok) : res (option (prim * list filter) * list etok) :=
    match ts with EElse :: r => do p <- pprim r; alt_filters p | _ => Ok (None, ts) end.
  Definition tail_stage (ts : list etok) : res (list filter * list etok) :=
    match ts with EDPipe :: _ => pfilters true true ts | _ => Ok ([], ts) end.

  Lemma parse_ternary_stages e ts :
    parse_ternary true e ts =
    do c <- pp flags_on (4 * length ts + 4) 1 (map to_ctok ts);
    do a <- alt_stage (skipn (length ts - length (snd c)) ts);
    do t <- tail_stage (snd a);
    match snd t with [] => Ok (XTern e (fst c) (fst a) (fst t)) | _ => Err ESyntax end.
  Proof. reflexivity. Qed.

    Definition print_alt (alt : option (prim * list filter)) : list etok :=
    match alt with Some (a, fs) => EElse :: print_prim a ++ print_pipes fs | None => [] end.
  Definition print_tail (tail : list filter) : list etok :=
    match tail with [] => [] | f :: r => EDPipe :: print_filter f ++ print_pipes r end.

  (* ' || f | g' *)
  Lemma tail_stage_roundtrip tail : forallb wf_filter tail = true -> tail_stage (print_tail tail) = Ok (tail, []).
  Proof.
    destruct tail as [|f fs]; intro Hwf; [reflexivity|]. cbn [forallb] in Hwf. apply andb_true_iff in Hwf. destruct Hwf as [Hf Hfs].
    cbn [print_tail tail_stage]. unfold pfilters. cbn [length].
    rewrite <- (app_nil_r (print_pipes fs)).
    rewrite (filter_step f EDPipe true _ _ [] Hf eq_refl (pipes_head fs [] eq_refl)).
    rewrite (pipes_roundtrip true fs [f] [] _ Hfs eq_refl); [reflexivity|].
    pose proof (pipes_length fs). rewrite !app_length. cbn [length]. lia.
  Qed.

  (* the text of the tail filters is empty or begins with `||`: it ends the alternative, filters included *)
  Lemma alt_filters_roundtrip a fs tail : forallb wf_filter fs = true ->
    alt_filters (a, print_pipes fs ++ print_tail tail) = Ok (Some (a, fs), print_tail tail).
  Proof.
    intro Hfs. destruct fs as [|f fs']; [destruct tail; reflexivity|].
    assert (Hpf : pfilters true false (print_pipes (f :: fs') ++ print_tail tail) = Ok (f :: fs', print_tail tail))
      by (apply pfilters_roundtrip; [exact Hfs|destruct tail; reflexivity]).
    unfold alt_filters, ExprSyntax.print_pipes in Hpf |- *. cbn [flat_map app fst snd] in Hpf |- *. rewrite Hpf. reflexivity.
  Qed.

  Lemma alt_stage_roundtrip alt tail :
    match alt with Some (a, fs) => wf_prim a && forallb wf_filter fs | None => true end = true ->
    alt_stage (print_alt alt ++ print_tail tail) = Ok (alt, print_tail tail).
  Proof.
    intro Halt. destruct alt as [[a fs]|]; [|destruct tail; reflexivity].
    apply andb_true_iff in Halt. destruct Halt as [Ha Hfs]. cbn [print_alt app alt_stage]. rewrite <- app_assoc.
    assert (Ht : ffollow (print_tail tail) = true) by (destruct tail; reflexivity).
    rewrite (pprim_roundtrip a _ Ha (sep_follow _ (ffollow_sep _ (pipes_head fs _ Ht)))). apply (alt_filters_roundtrip a fs tail Hfs).
  Qed.

  Lemma ternary_roundtrip e c alt tail :
    match alt with Some (a, fs) => wf_prim a && forallb wf_filter fs | None => true end = true -> forallb wf_filter tail = true ->
    parse_ternary true e (map ECond (print2 c)
        ++ match alt with Some (a, fs) => EElse :: print_prim a ++ print_pipes fs | None => [] end
        ++ match tail with [] => [] | f :: r => EDPipe :: print_filter f ++ print_pipes r end) = Ok (XTern e c alt tail).
  Proof.
    intros Halt Htail. fold (print_alt alt) (print_tail tail).
    assert (Hc : cfollow (print_alt alt ++ print_tail tail) = true) by (destruct alt as [[a fs]|]; [reflexivity|destruct tail; reflexivity]).
    destruct (cond_roundtrip c _ Hc) as [Hpp Hsk]. cbn zeta in Hpp, Hsk.
    rewrite parse_ternary_stages, Hpp. cbn [bind fst snd]. rewrite Hsk, (alt_stage_roundtrip alt tail Halt). cbn [bind fst snd].
    rewrite (tail_stage_roundtrip tail Htail). reflexivity.
  Qed.

  (* FilteredExpression.parse reads back every filtered expression and every ternary *)
  Theorem expr_roundtrip e : wf_expr e = true -> parse_expr true (print_expr e) = Ok e.
  Proof.
    intro Hwf. destruct e as [e|e c alt tail]; cbn [wf_expr] in Hwf.
    - unfold parse_expr. cbn [ExprSyntax.print_expr]. rewrite <- (app_nil_r (print_fexpr e)).
      rewrite (fexpr_left e [] Hwf eq_refl). cbn [bind fst snd].
      unfold wf_fexpr in Hwf. apply andb_true_iff in Hwf. destruct Hwf as [_ Hfs].
      rewrite (pfilters_roundtrip false (fe_filters e) [] Hfs eq_refl). cbn [bind fst snd]. destruct e; reflexivity.
    - apply andb_true_iff in Hwf. destruct Hwf as [Hwf Htail]. apply andb_true_iff in Hwf. destruct Hwf as [He Halt].
      unfold parse_expr. cbn [ExprSyntax.print_expr].
      rewrite (fexpr_left e (EIf :: _) He eq_refl). cbn [bind fst snd].
      pose proof He as He'. unfold wf_fexpr in He'. apply andb_true_iff in He'. destruct He' as [_ Hfs].
      rewrite (pfilters_roundtrip false (fe_filters e) (EIf :: _) Hfs eq_refl). cbn [bind fst snd].
      replace {| fe_left := fe_left e; fe_filters := fe_filters e |} with e by (destruct e; reflexivity).
      apply ternary_roundtrip; assumption.
  Qed.
End RoundTrip.
