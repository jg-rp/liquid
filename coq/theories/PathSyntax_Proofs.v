(* Paths: parsing the serialisation of a path gives the path back. *)
From LiquidVerif Require Import Prelude PathSyntax.

Section RoundTrip.
  Variable is_prop : str -> bool.
  Local Notation print_seg := (PathSyntax.print_seg is_prop).
  Local Notation print_segs := (PathSyntax.print_segs is_prop).
  Local Notation parse_path := (PathSyntax.parse_path).

  (* the list function nested inside print_seg is print_segs *)
  Lemma go_print_segs first p :
    (fix go (first : bool) (l : list seg) : list ptok :=
       match l with [] => [] | x :: r => print_seg first x ++ go false r end) first p = print_segs first p.
  Proof. revert first. induction p as [|x r IH]; intro first; [reflexivity|]. cbn [PathSyntax.print_segs]. rewrite <- (IH false). reflexivity. Qed.

  Lemma print_nested_first b p : print_seg b (SNested p) = PLBr :: print_segs true p ++ [PRBr].
  Proof. cbn [PathSyntax.print_seg]. rewrite go_print_segs. reflexivity. Qed.
  Lemma print_nested p : print_seg false (SNested p) = PLBr :: print_segs true p ++ [PRBr].
  Proof. apply print_nested_first. Qed.

  (* nested paths are non-empty (the parser never builds an empty one) *)
  Fixpoint wfs (g : seg) : bool :=
    match g with
    | SNested p => match p with [] => false | _ => true end &&
                   (fix wl (l : list seg) : bool := match l with [] => true | x :: r => wfs x && wl r end) p
    | _ => true
    end.
  Fixpoint wfl (l : list seg) : bool := match l with [] => true | x :: r => wfs x && wfl r end.
  Lemma wl_wfl l : (fix wl (l : list seg) : bool := match l with [] => true | x :: r => wfs x && wl r end) l = wfl l.
  Proof. induction l as [|x r IH]; [reflexivity|]. cbn [wfl]. rewrite <- IH. reflexivity. Qed.
  Lemma wfs_nested p : wfs (SNested p) = match p with [] => false | _ => true end && wfl p.
  Proof. cbn [wfs]. rewrite wl_wfl. reflexivity. Qed.

  (* what may follow a path: the end, a closing bracket (of an enclosing path), or a token of no path *)
  Definition rest_ok (rest : list ptok) : Prop :=
    match rest with [] => True | PRBr :: _ | POther :: _ => True | _ => False end.

  Lemma not_word_after l rest : rest_ok rest -> is_word (hd_error (print_segs false l ++ rest)) = false.
  Proof.
    intro Hr. destruct l as [|x r].
    - cbn [PathSyntax.print_segs app]. destruct rest as [|[]]; try (exfalso; exact Hr); reflexivity.
    - cbn [PathSyntax.print_segs]. destruct x as [s|z|p].
      + cbn [PathSyntax.print_seg]. destruct (is_prop s); reflexivity.
      + reflexivity.
      + rewrite print_nested_first. reflexivity.
  Qed.

  (* a token that cannot continue a path ends it *)
  Lemma parse_end acc rest f : acc <> [] -> rest_ok rest -> parse_path (S f) acc rest = Ok (rev acc, rest).
  Proof.
    intros Hne Hr. destruct rest as [|[]]; cbn in Hr; try contradiction; cbn [PathSyntax.parse_path]; destruct acc; try congruence; reflexivity.
  Qed.

  (* k bounds the printed length: the segments of a nested path are parsed by a recursive call, on a shorter text *)
  Lemma parse_print : forall k l first acc rest fuel,
    length (print_segs first l) < k -> wfl l = true -> (acc <> [] \/ l <> []) ->
    rest_ok rest -> length (print_segs first l) + length rest < fuel ->
    parse_path fuel acc (print_segs first l ++ rest) = Ok (rev acc ++ l, rest).
  Proof.
    induction k as [|k IHk]; intros l first acc rest fuel Hlen Hwf Hne Hr Hf; [lia|]. destruct fuel as [|f]; [lia|].
    destruct l as [|x r].
    - destruct Hne as [Hne|Hne]; [|congruence]. cbn [PathSyntax.print_segs app]. rewrite app_nil_r. apply parse_end; assumption.
    - cbn [wfl] in Hwf. apply andb_true_iff in Hwf. destruct Hwf as [Hx Hwr].
      assert (Hnw : is_word (hd_error (print_segs false r ++ rest)) = false) by (apply not_word_after, Hr).
      assert (Hrec : forall g, length (print_segs false r) < k -> length (print_segs false r) + length rest < g ->
                parse_path g (x :: acc) (print_segs false r ++ rest) = Ok (rev acc ++ x :: r, rest)).
      { intros g H1 H2. rewrite (IHk r false (x :: acc) rest g H1 Hwr ltac:(left; discriminate) Hr H2).
        cbn [rev]. rewrite <- app_assoc. reflexivity. }
      cbn [PathSyntax.print_segs] in Hlen, Hf |- *. rewrite <- app_assoc. rewrite app_length in Hlen, Hf.
      destruct x as [s|z|p].
      + cbn [PathSyntax.print_seg] in Hlen, Hf |- *.
        destruct (is_prop s), first; cbn [length] in Hlen, Hf; cbn [app PathSyntax.parse_path hd_error is_word].
        * rewrite Hnw. apply Hrec; lia.
        * destruct f as [|f']; [lia|]. cbn [PathSyntax.parse_path]. rewrite Hnw. apply Hrec; lia.
        * rewrite Hnw. apply Hrec; lia.
        * rewrite Hnw. apply Hrec; lia.
      + cbn [PathSyntax.print_seg length] in Hlen, Hf. cbn [PathSyntax.print_seg app PathSyntax.parse_path]. rewrite Hnw. apply Hrec; lia.
      + rewrite wfs_nested in Hx. apply andb_true_iff in Hx. destruct Hx as [Hpne Hwp].
        rewrite print_nested_first in Hlen, Hf |- *. cbn [length] in Hlen, Hf. rewrite app_length in Hlen, Hf. cbn [length] in Hlen, Hf.
        cbn [app]. rewrite <- app_assoc. cbn [app PathSyntax.parse_path].
        rewrite (IHk p true [] (PRBr :: print_segs false r ++ rest) f); [| lia | exact Hwp | right; destruct p; discriminate | exact I | cbn [length]; rewrite app_length; lia ].
        cbn [bind fst snd rev app]. rewrite Hnw. apply Hrec; lia.
  Qed.

  (* C04 (paths): for every path (names of any spelling, integer indexes, nested paths to any depth, non-empty at every level)
     the tokens Path.__str__ writes are read back by Path.parse as the same path, whatever non-path token follows *)
  Theorem path_roundtrip p rest : p <> [] -> wfl p = true -> rest_ok rest ->
    parse_path (S (length (print_path is_prop p ++ rest))) [] (print_path is_prop p ++ rest) = Ok (p, rest).
  Proof.
    intros Hne Hwf Hr. unfold print_path.
    rewrite (parse_print (S (length (print_segs true p))) p true [] rest); [reflexivity|lia|exact Hwf|right; exact Hne|exact Hr|rewrite app_length; lia].
  Qed.
End RoundTrip.

(* Path.__str__ before the fix: the first segment is written bare, so the path [x] (the value of x as a name) is written x *)
Definition print_path_old (is_prop : str -> bool) (p : list seg) : list ptok :=
  match p with
  | SNested [SName s] :: r => PWord s :: print_segs is_prop false r
  | SName s :: r => PWord s :: print_segs is_prop false r
  | _ => print_segs is_prop true p
  end.
