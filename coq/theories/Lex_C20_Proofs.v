(* Lex_C20_Proofs.v — the offset invariant of the scanner (every token's start offset lies inside the source and,
   for output / expression / tag tokens, the token's value is found at that offset), the same for the inner tokens
   of a liquid tag, composition of offsets, and the lemmas about the line-column computation. *)
From LiquidVerif Require Import Prelude Lex LexSpec Lex_Proofs.
Arguments hy : simpl never.
Arguments nl : simpl never.
Arguments hash : simpl never.

Lemma ws_len_le s : ws_len s <= length s.
Proof. induction s; simpl; [lia|]. destruct (is_space a); simpl; lia. Qed.

Lemma word_len_le s : word_len s <= length s.
Proof. induction s; simpl; [lia|]. destruct (is_word a); simpl; lia. Qed.

Lemma span_len_le f s : span_len f s <= length s.
Proof. induction s; simpl; [lia|]. destruct (f a); simpl; lia. Qed.

Lemma name_len_le s : name_len s <= length s.
Proof. unfold name_len. destruct s; [simpl; lia|]. destruct (N.eqb n hash); [simpl; lia|]. apply word_len_le. Qed.

(* a run that is no longer than the text, measured from offset k, ends inside the text *)
Lemma run_inside (f : str -> nat) s k : (forall x, f x <= length x) -> k <= length s -> k + f (skipn k s) <= length s.
Proof. intros Hf Hk. pose proof (Hf (skipn k s)) as H. rewrite skipn_length in H. lia. Qed.

Lemma prefixb_length p s : prefixb p s = true -> length p <= length s.
Proof.
  revert s; induction p as [|a p IH]; intros s H; simpl; [lia|].
  destruct s; simpl in *; [discriminate|]. apply andb_true_iff in H as [_ H]. apply IH in H. lia.
Qed.

Lemma close_bounds e s h n : close e s = Some (h, n) -> length e <= n /\ n <= length s.
Proof.
  unfold close. intros H. pose proof (ws_len_le s) as Hw.
  destruct (prefixb (hy :: e) (skipn (ws_len s) s)) eqn:P1.
  - injection H as _ <-. apply prefixb_length in P1. rewrite skipn_length in P1. simpl in P1. lia.
  - destruct (prefixb e (skipn (ws_len s) s)) eqn:P2; [|discriminate].
    injection H as _ <-. apply prefixb_length in P2. rewrite skipn_length in P2. lia.
Qed.

Lemma find_first_bounds {A} (f : str -> option (A * nat)) m :
  (forall x a n, f x = Some (a, n) -> m <= n /\ n <= length x) ->
  forall s j a n, find_first f s = Some (j, a, n) -> j + m <= n /\ n <= length s.
Proof.
  intros Hf s j a n H. apply find_first_hit in H as (k & Hk & -> & Hj).
  apply Hf in Hk. rewrite skipn_length in Hk. lia.
Qed.

(* the greedy optional hyphen: the continuation succeeded right after the delimiter or one character further *)
Lemma with_hyphen_some {A} s k (f : nat -> option A) r :
  with_hyphen s k f = Some r -> k <= length s -> exists k', k' <= length s /\ f k' = Some r.
Proof.
  unfold with_hyphen. intros H Hk. destruct (skipn k s) as [|c l] eqn:E; [exists k; auto|].
  destruct (N.eqb c hy); [|exists k; auto]. destruct (f (S k)) eqn:E2; [|exists k; auto].
  exists (S k). split; [|congruence].
  apply (f_equal (@length N)) in E. rewrite skipn_length in E. simpl in E. lia.
Qed.

(* name, expression and closing delimiter lie inside the match, in this order *)
Lemma m_tag_bounds d s no nlen eo el h tot :
  m_tag d s = Some (no, nlen, eo, el, h, tot) ->
  no <= eo /\ eo + el + length (d_te d) <= tot /\ tot <= length s.
Proof.
  unfold m_tag. destruct (prefixb (d_ts d) s) eqn:P; [|discriminate]. apply prefixb_length in P.
  intros H. apply with_hyphen_some in H as (k & Hk & H); [|exact P]. cbv beta zeta in H.
  set (k2 := k + ws_len (skipn k s)) in H. set (k3 := k2 + name_len (skipn k2 s)) in H.
  set (k4 := k3 + ws_len (skipn k3 s)) in H.
  assert (A2 : k2 <= k4) by (apply Nat.le_trans with k3; apply Nat.le_add_r).
  assert (A4 : k4 <= length s) by (repeat apply run_inside; auto using ws_len_le, name_len_le).
  destruct (find_first (close (d_te d)) (skipn k4 s)) as [[[j h0] n]|] eqn:FF; [|discriminate].
  apply (find_first_bounds _ _ (close_bounds (d_te d))) in FF as [B1 B2]. rewrite skipn_length in B2.
  injection H as <- _ <- <- _ <-. lia.
Qed.

Lemma m_output_bounds d s eo el h tot :
  m_output d s = Some (eo, el, h, tot) -> eo + el + length (d_se d) <= tot /\ tot <= length s.
Proof.
  unfold m_output. destruct (prefixb (d_ss d) s) eqn:P; [|discriminate]. apply prefixb_length in P.
  intros H. apply with_hyphen_some in H as (k & Hk & H); [|exact P]. cbv beta zeta in H.
  set (k2 := k + ws_len (skipn k s)) in H.
  assert (A2 : k2 <= length s) by (apply run_inside; auto using ws_len_le).
  destruct (find_first (close (d_se d)) (skipn k2 s)) as [[[j h0] n]|] eqn:FF; [|discriminate].
  apply (find_first_bounds _ _ (close_bounds (d_se d))) in FF as [B1 B2]. rewrite skipn_length in B2.
  injection H as <- <- _ <-. lia.
Qed.

(* an output or tag match of the ordered alternation is the match of its own rule *)
Lemma match_at_rule d q s :
  match match_at d q s with
  | MOutput eo el h t => m_output d s = Some (eo, el, h, t)
  | MTag no nlen eo el h t => m_tag d s = Some (no, nlen, eo, el, h, t)
  | _ => True
  end.
Proof.
  unfold match_at.
  destruct (block d w_raw w_endraw s) as [[[[[? ?] ?] ?] ?]|]; [exact I|].
  destruct (block d w_doc w_enddoc s) as [[[[[? ?] ?] ?] ?]|]; [exact I|].
  destruct (m_comment d s) as [[[[? ?] ?] ?]|]; [exact I|].
  destruct (m_output d s) as [[[[? ?] ?] ?]|]; [reflexivity|].
  destruct (m_tag d s) as [[[[[[? ?] ?] ?] ?] ?]|]; [reflexivity|].
  destruct (content_from d (q_dollar q) (tl s)). exact I.
Qed.

Definition exact_kind (k : kind) : bool := match k with KOutput | KExpr | KTag => true | _ => false end.

(* the start offset lies inside the source and, for output / expression / tag tokens, the value of the token is
   the text of the source at that offset *)
Definition tok_ok (src : str) (t : token) : Prop :=
  (t_start t < N.of_nat (length src))%N /\
  (exact_kind (t_kind t) = true -> sub src (N.to_nat (t_start t)) (length (t_value t)) = t_value t).

(* the position carried by the lexer's own syntax error lies inside the source *)
Definition item_ok (src : str) (i : item) : Prop :=
  match i with Tok t => tok_ok src t | LexErr p => (p < N.of_nat (length src))%N end.

Lemma firstn_length_firstn {A} l (x : list A) : firstn (length (firstn l x)) x = firstn l x.
Proof. revert x; induction l; intros x; simpl; auto. destruct x; simpl; auto. f_equal. apply IHl. Qed.

(* a piece of s is found in pre ++ s, further right by the length of pre *)
Lemma sub_in_app pre s o l : sub (pre ++ s) (length pre + o) (length (sub s o l)) = sub s o l.
Proof. unfold sub. rewrite skipn_app_len_add. apply firstn_length_firstn. Qed.

Lemma tok_sub pre s o l k : o < length s ->
  tok_ok (pre ++ s) {| t_kind := k; t_value := sub s o l; t_start := off (N.of_nat (length pre)) o |}.
Proof.
  intros Ho. split; cbn [t_start t_value t_kind]; unfold off.
  - rewrite app_length. lia.
  - intros _. replace (N.to_nat (N.of_nat (length pre) + N.of_nat o)) with (length pre + o) by lia.
    apply sub_in_app.
Qed.

Lemma tok_whole pre s tot : 0 < length s ->
  tok_ok (pre ++ s) {| t_kind := KOutput; t_value := firstn tot s; t_start := N.of_nat (length pre) |}.
Proof.
  intros H0. pose proof (tok_sub pre s 0 tot KOutput H0) as H. unfold off in H. rewrite N.add_0_r in H. exact H.
Qed.

(* tokens of the other kinds only have to start inside the source *)
Lemma tok_inexact src k v p : (p < N.of_nat (length src))%N -> exact_kind k = false ->
  tok_ok src {| t_kind := k; t_value := v; t_start := p |}.
Proof. intros Hp Hk. split; [exact Hp|]. cbn [t_kind]. congruence. Qed.

Lemma nonempty_length (e : str) : nonempty e = true -> 1 <= length e.
Proof. destruct e; simpl; [discriminate|lia]. Qed.

(* [ls_cidx] side condition: the KComment token, emitted at endcomment, starts at [ls_cidx] *)
Lemma step_items_ok d q pre s st out st' tot :
  nonempty (d_te d) = true -> nonempty (d_se d) = true -> s <> [] ->
  step d q (N.of_nat (length pre)) s st = (out, st', tot) ->
  (ls_cidx st <= N.of_nat (length pre))%N ->
  (forall i, In i out -> item_ok (pre ++ s) i) /\ (ls_cidx st' <= N.of_nat (length pre + tot))%N.
Proof.
  intros Hte Hse Hs H Hc. apply nonempty_length in Hte, Hse.
  assert (H0 : 0 < length s) by (destruct s; [congruence | simpl; lia]).
  assert (Hp : (N.of_nat (length pre) < N.of_nat (length (pre ++ s)))%N) by (rewrite app_length; lia).
  assert (Hc' : forall n, (ls_cidx st <= N.of_nat (length pre + n))%N) by (intros; lia).
  pose proof (match_at_rule d q s) as R. unfold step in H.
  destruct (ls_depth st) as [|dep];
    destruct (match_at d q s) as [h1 h2 bo bl t|h1 h2 bo bl t|bo bl h t|eo el h t|no nlen eo el h t|t rs];
    cbn [m_total] in H.
  (* depth 0: MRaw MDoc MComment: one token, which only has to start inside *)
  1-3: injection H as <- <- <-; split; [|apply Hc'].
  1-3: intros i [<-|[]]; apply tok_inexact; [exact Hp|reflexivity].
  (* MOutput MTag MContent *)
  { apply m_output_bounds in R as [B1 B2]. injection H as <- <- <-. split; [|apply Hc'].
    intros i [<-|[<-|[]]]; [apply tok_whole; exact H0 | apply tok_sub; lia]. }
  { apply m_tag_bounds in R as (B1 & B2 & B3). injection H as <- <- <-. split.
    - intros i [<-|Hin]; [apply tok_sub; lia|].
      destruct el; [destruct Hin|]. destruct Hin as [<-|[]]. apply tok_sub; lia.
    - cbn [ls_cidx]. destruct (str_eqb (sub s no nlen) w_comment); [unfold off; lia | apply Hc']. }
  { injection H as <- <- <-. split; [|apply Hc'].
    intros i Hin. destruct (if rs then _ else _) as [|c v]; [destruct Hin|].
    destruct (starts_markup d q (c :: v)); destruct Hin as [<-|[]]; [exact Hp|].
    apply tok_inexact; [exact Hp|reflexivity]. }
  (* depth S dep, all but MTag: nothing is emitted before the tag that closes the block *)
  1-4, 6: injection H as <- <- <-; split; [intros i []|apply Hc'].
  apply m_tag_bounds in R as (B1 & B2 & B3).
  destruct (str_eqb (sub s no nlen) w_endcomment); [destruct dep|destruct (str_eqb (sub s no nlen) w_comment)];
    injection H as <- <- <-.
  (* MTag: endcomment at dep 0; deeper endcomment, comment, other tag emit nothing *)
  2-4: split; [intros i []|apply Hc'].
  (* the tag that closes the outermost comment: the comment token, then the tag *)
  split; [|cbn [ls_cidx]; lia].
  intros i [<-|[<-|[]]]; [apply tok_inexact; [lia|reflexivity] | apply tok_sub; lia].
Qed.

Lemma go_items_ok d q src : nonempty (d_te d) = true -> nonempty (d_se d) = true ->
  forall s skip pre st, src = pre ++ s ->
  (ls_cidx st <= N.of_nat (length pre + skip))%N ->
  forall i, In i (go d q skip (N.of_nat (length pre)) s st) -> item_ok src i.
Proof.
  intros Hte Hse. induction s as [|c s IH]; intros skip pre st Hsrc Hc i Hin; [destruct Hin|].
  assert (Hp : N.succ (N.of_nat (length pre)) = N.of_nat (length (pre ++ [c]))) by (rewrite last_length; lia).
  assert (Hsrc' : src = (pre ++ [c]) ++ s) by (rewrite <- app_assoc; exact Hsrc).
  assert (Hne : c :: s <> []) by discriminate.
  cbn [go] in Hin. destruct skip as [|k].
  - rewrite Nat.add_0_r in Hc.
    destruct (step d q (N.of_nat (length pre)) (c :: s) st) as [[out st'] tot] eqn:E.
    destruct (step_items_ok _ _ _ _ _ _ _ _ Hte Hse Hne E Hc) as [H1 H2].
    apply in_app_or in Hin as [Hin|Hin]; [subst src; apply H1; exact Hin|].
    rewrite Hp in Hin. eapply IH; [exact Hsrc' | | exact Hin]. rewrite last_length. lia.
  - rewrite Hp in Hin. eapply IH; [exact Hsrc' | | exact Hin]. rewrite last_length. lia.
Qed.

Lemma scan_items_ok d q src : nonempty (d_te d) = true -> nonempty (d_se d) = true ->
  forall i, In i (scan d q src) -> item_ok src i.
Proof. intros Hte Hse. apply (go_items_ok d q src Hte Hse src 0 [] ls0 eq_refl). simpl. lia. Qed.

Lemma items_result_in l ts t : items_result l = Ok ts -> In t ts -> In (Tok t) l.
Proof.
  revert ts. induction l as [|[t0|p] l IH]; intros ts H Hin; simpl in H.
  - injection H as <-. destruct Hin.
  - destruct (items_result l) as [ts0| |]; try discriminate. injection H as <-.
    destruct Hin as [->|Hin]; [left; reflexivity|right; eapply IH; eauto].
  - discriminate.
Qed.

(* composition of offsets (expression tokens: parent_token.start_index + match.start(); liquid-tag inner tokens
   likewise) *)
Lemma sub_sub (src : str) a (v : str) m l :
  sub src a (length v) = v -> m + l <= length v -> sub src (a + m) l = sub v m l.
Proof.
  intros Hv Hl. unfold sub in *. rewrite skipn_add.
  transitivity (firstn l (skipn m (firstn (length v) (skipn a src)))); [|rewrite Hv; reflexivity].
  rewrite skipn_firstn_comm, firstn_firstn. f_equal. lia.
Qed.

(* the same for a piece given as a text w found in v at offset m *)
Lemma sub_found (src v w : str) a m :
  sub src a (length v) = v -> sub v m (length w) = w -> sub src (a + m) (length w) = w.
Proof.
  intros Hv Hw.
  assert (L : length w <= length v - m).
  { rewrite <- Hw. unfold sub. rewrite firstn_length, skipn_length. lia. }
  destruct (le_lt_dec (m + length w) (length v)) as [Hl|Hl].
  - rewrite <- Hw at 2. apply sub_sub; assumption.
  - (* m lies beyond v: w is empty *)
    destruct w; [reflexivity | simpl in L, Hl; lia].
Qed.

Fixpoint nsum (l : list N) : N := match l with [] => 0%N | x :: r => (x + nsum r)%N end.

(* on a bound of the length: after CR LF [line_lens] recurses on the tail's tail *)
Lemma nsum_line_lens : forall n s, length s <= n -> forall cur,
  nsum (line_lens cur s) = (cur + N.of_nat (length s))%N.
Proof.
  induction n; intros s Hn cur.
  - destruct s; [|simpl in Hn; lia]. simpl. destruct (N.eqb_spec cur 0); simpl; lia.
  - destruct s as [|c r]; [simpl; destruct (N.eqb_spec cur 0); simpl; lia|].
    simpl in Hn. cbn [line_lens]. destruct (is_linebreak c).
    + destruct r as [|c2 r2]; [simpl; lia|].
      destruct (N.eqb c 13 && N.eqb c2 10); cbn [nsum]; rewrite IHn by (simpl in *; lia); simpl length; lia.
    + rewrite IHn by lia. simpl length. lia.
Qed.

Lemma line_lens_cover src : nsum (line_lens 0 src) = N.of_nat (length src).
Proof. apply (nsum_line_lens (length src) src (le_n _) 0%N). Qed.

Lemma find_line_spec : forall lens index cum lineno,
  (cum <= index)%N -> (index < cum + nsum lens)%N ->
  exists k c, find_line lens index cum lineno = Some ((lineno + N.of_nat k)%N, c)
              /\ k < length lens /\ (cum + nsum (firstn k lens) + c = index)%N /\ (c < nth k lens 0)%N.
Proof.
  induction lens as [|x lens IH]; intros index cum lineno H1 H2; simpl in H2; [lia|].
  cbn [find_line]. destruct (N.ltb_spec index (cum + x)) as [Hlt|Hge].
  - exists 0, (index - cum)%N. simpl. rewrite N.add_0_r. repeat split; lia.
  - destruct (IH index (cum + x)%N (N.succ lineno)) as (k & c & E & Hk & Hs & Hc); try lia.
    exists (S k), c. rewrite E. simpl. repeat split; try lia. f_equal. f_equal. lia.
Qed.

Lemma find_line_none : forall lens index cum lineno,
  (cum + nsum lens <= index)%N -> find_line lens index cum lineno = None.
Proof.
  induction lens as [|x lens IH]; intros index cum lineno Hle; simpl in *; [reflexivity|].
  destruct (N.ltb_spec index (cum + x)); [lia|]. apply IH. lia.
Qed.

Lemma liquid_name_len_le marker x : liquid_name_len marker x <= length x.
Proof.
  unfold liquid_name_len. destruct (nonempty marker && prefixb marker x) eqn:E.
  - apply andb_true_iff in E as [_ E]. apply prefixb_length; auto.
  - apply word_len_le.
Qed.

Lemma line_end_le x a n : line_end' x = Some (a, n) -> n <= length x.
Proof.
  unfold line_end', line_end. pose proof (span_len_le is_blank_cr x) as Hk.
  pose proof (skipn_length (span_len is_blank_cr x) x) as Hl.
  destruct (skipn (span_len is_blank_cr x) x) as [|c r].
  - intros H. injection H as _ <-. lia.
  - destruct (N.eqb c nl); [|discriminate]. intros H. injection H as _ <-.
    pose proof (span_len_le (N.eqb nl) r). simpl in Hl. lia.
Qed.

Lemma liquid_match_bounds marker s no nlen eo el tot :
  liquid_match marker s = LExpr no nlen eo el tot -> no < length s /\ (el <> 0 -> eo < length s).
Proof.
  unfold liquid_match.
  set (k1 := span_len is_blank s). set (nl_ := liquid_name_len marker (skipn k1 s)).
  pose proof (span_len_le is_blank s) as A1. fold k1 in A1.
  pose proof (liquid_name_len_le marker (skipn k1 s)) as A2. fold nl_ in A2. rewrite skipn_length in A2.
  assert (Hskip : forall r, match span_len is_crlf s with 0 => LIllegal | S n => LSkip (S n) end = LExpr no nlen eo el tot -> r)
    by (intros r; destruct (span_len is_crlf s); discriminate).
  destruct nl_ as [|n]; [apply Hskip|].
  set (k3 := k1 + S n + span_len is_blank (skipn (k1 + S n) s)).
  pose proof (span_len_le is_blank (skipn (k1 + S n) s)) as A3. rewrite skipn_length in A3.
  destruct (find_first line_end' (skipn k3 s)) as [[[j u] n']|] eqn:FF; [|apply Hskip].
  intros H. injection H as <- _ <- <- _.
  destruct (find_first_bounds line_end' 0 (fun x a n H => conj (Nat.le_0_l n) (line_end_le x a n H)) _ _ _ _ FF) as [B1 B2]. rewrite skipn_length in B2.
  split; [lia|]. intros Hel. unfold k3 in *. lia.
Qed.

(* a token of the inner scan: its offset relative to the liquid tag's expression lies inside the expression, and its
   value is the text of the expression there *)
Definition inner_ok (base : N) (expr : str) (i : item) : Prop :=
  match i with
  | Tok t => exists o, t_start t = (base + N.of_nat o)%N /\ o < length expr /\ sub expr o (length (t_value t)) = t_value t
  | LexErr _ => True
  end.

Lemma inner_sub base pre s o l k : o < length s ->
  inner_ok base (pre ++ s) (Tok {| t_kind := k; t_value := sub s o l; t_start := off (base + N.of_nat (length pre)) o |}).
Proof.
  intros Ho. exists (length pre + o). cbn [t_start t_value]. repeat split.
  - unfold off. lia.
  - rewrite app_length. lia.
  - apply sub_in_app.
Qed.

Lemma liquid_go_ok marker drop base expr : forall s skip pre, expr = pre ++ s ->
  forall i, In i (liquid_go marker drop skip (base + N.of_nat (length pre)) s) -> inner_ok base expr i.
Proof.
  induction s as [|c s IH]; intros skip pre Hexpr i Hin; [destruct Hin|].
  assert (Hp : N.succ (base + N.of_nat (length pre)) = (base + N.of_nat (length (pre ++ [c])))%N)
    by (rewrite last_length; lia).
  assert (Hexpr' : expr = (pre ++ [c]) ++ s) by (rewrite <- app_assoc; exact Hexpr).
  cbn [liquid_go] in Hin. destruct skip as [|k].
  - destruct (liquid_match marker (c :: s)) as [no nlen eo el tot|tot|] eqn:M.
    + apply liquid_match_bounds in M as [B1 B2].
      apply in_app_or in Hin as [Hin|Hin].
      * destruct (drop && str_eqb (sub (c :: s) no nlen) marker); [destruct Hin|].
        destruct Hin as [<-|Hin]; [subst expr; apply inner_sub; exact B1|].
        destruct el; [destruct Hin|]. destruct Hin as [<-|[]]. subst expr. apply inner_sub. apply B2. discriminate.
      * rewrite Hp in Hin. eapply IH; eauto.
    + rewrite Hp in Hin. eapply IH; eauto.
    + destruct Hin as [<-|[]]. exact I.
  - rewrite Hp in Hin. eapply IH; eauto.
Qed.

Lemma liquid_tokens_ok d base expr ts t : liquid_tokens d base expr = Ok ts -> In t ts -> inner_ok base expr (Tok t).
Proof.
  intros H Hin.
  assert (G : forall marker drop, items_result (liquid_go marker drop 0 base expr) = Ok ts -> inner_ok base expr (Tok t)).
  { intros marker drop Hr. apply (items_result_in _ _ _ Hr) in Hin.
    apply (liquid_go_ok marker drop base expr expr 0 [] eq_refl). simpl. rewrite N.add_0_r. exact Hin. }
  unfold liquid_tokens in H. destruct (liquid_marker d); eapply G; exact H.
Qed.
