(* Lex_Match_Proofs.v — what the ordered alternation [match_at] finds at the start of each piece of concrete syntax
   (text, tag-shaped markup, output statement, raw/doc block, shorthand comment), provided the pattern that ends a
   lazily matched body matches at no position inside that body ([nomatch], LexOcc.v). *)
From Coq Require Import ZifyBool.
From LiquidVerif Require Import Prelude Lex LexSpec LexOcc Lex_Proofs.
Import ListNotations.
Arguments hy : simpl never.
Arguments nl : simpl never.
Arguments hash : simpl never.
Arguments lbrace : simpl never.

Ltac norm_app := repeat rewrite <- app_assoc.

(* what [d_ok d = true] says, one fact per field *)
Record dfacts (d : delims) : Prop := {
  ts_ne : nonempty (d_ts d) = true;  te_ne : nonempty (d_te d) = true;
  ss_ne : nonempty (d_ss d) = true;  se_ne : nonempty (d_se d) = true;
  te_nsp : is_space (hd0 (d_te d)) = false;  te_nhy : N.eqb (hd0 (d_te d)) hy = false;
  te_nw : is_word (hd0 (d_te d)) = false;
  se_nsp : is_space (hd0 (d_se d)) = false;  se_nhy : N.eqb (hd0 (d_se d)) hy = false;
  ce_nhy : N.eqb (hd0 (d_ce d)) hy = false;
  ts_ss : clash (d_ts d) (d_ss d) = false;
  cs_facts : nonempty (d_cs d) = true ->
             nonempty (d_ce d) = true /\ clash (d_cs d) (d_ts d) = false /\ clash (d_cs d) (d_ss d) = false
}.

Lemma d_ok_facts d : d_ok d = true -> dfacts d.
Proof.
  unfold d_ok. intros H.
  repeat (apply andb_true_iff in H; destruct H as [H ?]).
  repeat match goal with Hx : negb _ = true |- _ => apply negb_true_iff in Hx end.
  constructor; auto.
  intros Hcs. rewrite Hcs in *. cbn [negb orb andb] in *.
  rewrite orb_false_r in *.
  repeat match goal with Hx : _ && _ = true |- _ => apply andb_true_iff in Hx; destruct Hx end.
  repeat match goal with Hx : negb _ = true |- _ => apply negb_true_iff in Hx end.
  auto.
Qed.

Lemma default_delims_ok : d_ok default_delims = true.
Proof. reflexivity. Qed.

Lemma nomatch_cons {A} (f : str -> option A) c y after :
  nomatch f (c :: y) after = true -> f ((c :: y) ++ after) = None /\ nomatch f y after = true.
Proof.
  cbn [nomatch]. intros H. apply andb_true_iff in H as [H1 H2]. split; [|exact H2].
  destruct (f ((c :: y) ++ after)); [discriminate|reflexivity].
Qed.

Lemma nomatch_at {A} (f : str -> option A) y after :
  nomatch f y after = true -> forall j, j < length y -> f (skipn j (y ++ after)) = None.
Proof.
  induction y as [|c y IH]; intros H j Hj; simpl in Hj; [lia|].
  apply nomatch_cons in H as [H1 H2]. destruct j; [exact H1|]. simpl. apply IH; auto. lia.
Qed.

Lemma nomatch_intro {A} (f : str -> option A) y after :
  (forall j, j < length y -> f (skipn j (y ++ after)) = None) -> nomatch f y after = true.
Proof.
  induction y as [|c y IH]; intros H; [reflexivity|]. cbn [nomatch].
  pose proof (H 0 ltac:(simpl; lia)) as H0. cbn [skipn] in H0. rewrite H0. cbn [is_some negb andb].
  apply IH. intros j Hj. apply (H (S j)). simpl. lia.
Qed.

(* a property of bodies that passes to tails and rules out a match at the start rules out a match at every position *)
Lemma nomatch_tails {A} (f : str -> option A) (P : str -> Prop) z :
  (forall c y, y <> [] -> P (c :: y) -> P y) -> (forall y, y <> [] -> P y -> f (y ++ z) = None) ->
  forall y, P y -> nomatch f y z = true.
Proof.
  intros Htl Hf. induction y as [|c y IH]; intros Hy; [reflexivity|]. cbn [nomatch].
  rewrite Hf by (auto; discriminate). cbn [is_some negb andb].
  destruct y; [reflexivity|]. apply IH. apply Htl with c; [discriminate | exact Hy].
Qed.

(* the search lemma: no match at any position of a prefix y => find_first lands exactly at the end of y *)
Lemma find_first_nomatch {A} (f : str -> option (A * nat)) y after a n :
  nomatch f y after = true -> f after = Some (a, n) ->
  find_first f (y ++ after) = Some (length y, a, length y + n).
Proof. intros H Hf. apply find_first_skip; [apply nomatch_at, H | exact Hf]. Qed.

(* a lazy body followed by its closing sub-pattern is found whole *)
Lemma lazy_close e y w r rest :
  nonempty e = true -> is_space (hd0 e) = false -> N.eqb (hd0 e) hy = false -> all_space w = true ->
  nomatch (close e) y (w ++ hyp r ++ e ++ rest) = true ->
  find_first (close e) (y ++ w ++ hyp r ++ e ++ rest) = Some (length y, r, length y + length (w ++ hyp r ++ e)).
Proof. intros E1 E2 E3 Hw Hy. apply find_first_nomatch; [exact Hy | apply close_here; auto]. Qed.

Lemma lazy_cclose e y r rest :
  nonempty e = true -> N.eqb (hd0 e) hy = false ->
  nomatch (cclose e) y (hyp r ++ e ++ rest) = true ->
  find_first (cclose e) (y ++ hyp r ++ e ++ rest) = Some (length y, r, length y + length (hyp r ++ e)).
Proof. intros E1 E3 Hy. apply find_first_nomatch; [exact Hy | apply cclose_here; auto]. Qed.

Lemma wordtag_at_ok te w s pre w1 w2 r rest :
  nonempty te = true -> is_space (hd0 te) = false -> N.eqb (hd0 te) hy = false ->
  skipn (length pre) s = w1 ++ w ++ w2 ++ hyp r ++ te ++ rest ->
  all_space w1 = true -> all_space w2 = true -> stops (w ++ w2 ++ hyp r ++ te ++ rest) ->
  wordtag_at te w s (length pre) = Some (r, length (pre ++ w1 ++ w ++ w2 ++ hyp r ++ te)).
Proof.
  intros T1 T2 T3 Hs Hw1 Hw2 Hst. unfold wordtag_at.
  rewrite Hs. rewrite ws_len_app_stops by auto.
  rewrite skipn_add, Hs, skipn_app_len, prefixb_app.
  rewrite !skipn_add, Hs, !skipn_app_len.
  rewrite close_here by auto. rewrite <- !app_length, <- !app_assoc. reflexivity.
Qed.

Lemma wordtag_at_mismatch te w s k w1 X :
  skipn k s = w1 ++ X -> all_space w1 = true -> stops X -> prefixb w X = false -> wordtag_at te w s k = None.
Proof.
  intros Hs Hw1 Hst Hp. unfold wordtag_at. rewrite Hs, ws_len_app_stops by auto.
  rewrite skipn_add, Hs, skipn_app_len, Hp. reflexivity.
Qed.

(* a tag word: not empty, and beginning with neither whitespace nor a hyphen *)
Definition word_ok (w : str) : Prop :=
  nonempty w = true /\ is_space (hd0 w) = false /\ N.eqb (hd0 w) hy = false.

Lemma word_ok_raw : word_ok w_raw. Proof. repeat split. Qed.
Lemma word_ok_endraw : word_ok w_endraw. Proof. repeat split. Qed.
Lemma word_ok_doc : word_ok w_doc. Proof. repeat split. Qed.
Lemma word_ok_enddoc : word_ok w_enddoc. Proof. repeat split. Qed.

Lemma word_ok_stops w s : word_ok w -> stops (w ++ s).
Proof. intros (H1 & H2 & _). destruct w; simpl in *; try discriminate. exact H2. Qed.

Lemma hyphen_next_space_or w X : all_space w = true -> hyphen_next X = false -> hyphen_next (w ++ X) = false.
Proof.
  destruct w as [|c w]; simpl; auto. intros H _. apply andb_true_iff in H as [Hc _].
  destruct (N.eqb_spec c hy); auto. subst c. rewrite hy_not_space in Hc. discriminate.
Qed.

Lemma hyphen_next_word w s : word_ok w -> hyphen_next (w ++ s) = false.
Proof. intros (H1 & _ & H3). destruct w; simpl in *; try discriminate. exact H3. Qed.

Lemma wordtag_ok d l w1 w w2 r rest : dfacts d ->
  all_space w1 = true -> all_space w2 = true -> word_ok w ->
  wordtag d w (d_ts d ++ hyp l ++ w1 ++ w ++ w2 ++ hyp r ++ d_te d ++ rest)
  = Some (r, length (d_ts d ++ hyp l ++ w1 ++ w ++ w2 ++ hyp r ++ d_te d)).
Proof.
  intros F Hw1 Hw2 Hw. unfold wordtag. rewrite prefixb_app.
  apply with_hyphen_hyp with (l := l) (X := w1 ++ w ++ w2 ++ hyp r ++ d_te d ++ rest).
  - apply skipn_app_len.
  - apply hyphen_next_space_or; auto. apply hyphen_next_word; auto.
  - rewrite wordtag_at_ok with (w1 := w1) (w2 := w2) (r := r) (rest := rest);
      auto using te_ne, te_nsp, te_nhy, word_ok_stops.
    + rewrite <- !app_assoc. reflexivity.
    + rewrite app_assoc. apply skipn_app_len.
Qed.

Lemma wordtag_not_ts d w s : prefixb (d_ts d) s = false -> wordtag d w s = None.
Proof. intros H. unfold wordtag. rewrite H. reflexivity. Qed.

(* a tag whose name is not w *)
Lemma wordtag_mismatch d w l w1 X : word_ok w ->
  all_space w1 = true -> stops X -> hyphen_next X = false -> prefixb w X = false ->
  wordtag d w (d_ts d ++ hyp l ++ w1 ++ X) = None.
Proof.
  intros Hw Hw1 Hst Hhn Hp. unfold wordtag. rewrite prefixb_app.
  destruct l; cbn [hyp app].
  - erewrite with_hyphen_yes_none; [ | apply skipn_app_len | ].
    + unfold wordtag_at. rewrite skipn_app_len. rewrite ws_len_stop by apply hy_not_space.
      rewrite Nat.add_0_r, skipn_app_len.
      destruct Hw as (H1 & _ & H3). destruct w as [|c w']; simpl in H1; try discriminate.
      cbn [prefixb hd0] in *. rewrite H3. reflexivity.
    + eapply wordtag_at_mismatch; eauto. apply skipn_S_app.
  - rewrite with_hyphen_no.
    + eapply wordtag_at_mismatch; eauto. apply skipn_app_len.
    + rewrite skipn_app_len. apply hyphen_next_space_or; auto.
Qed.

Lemma block_ok d w endw l1 w1 w2 r1 body l2 w3 w4 r2 rest : dfacts d ->
  all_space w1 = true -> all_space w2 = true -> all_space w3 = true -> all_space w4 = true ->
  word_ok w -> word_ok endw ->
  nomatch (wordtag d endw) body ((d_ts d ++ hyp l2 ++ w3 ++ endw ++ w4 ++ hyp r2 ++ d_te d) ++ rest) = true ->
  block d w endw ((d_ts d ++ hyp l1 ++ w1 ++ w ++ w2 ++ hyp r1 ++ d_te d) ++ body
                  ++ (d_ts d ++ hyp l2 ++ w3 ++ endw ++ w4 ++ hyp r2 ++ d_te d) ++ rest)
  = Some (r1, r2, length (d_ts d ++ hyp l1 ++ w1 ++ w ++ w2 ++ hyp r1 ++ d_te d), length body,
          length ((d_ts d ++ hyp l1 ++ w1 ++ w ++ w2 ++ hyp r1 ++ d_te d) ++ body
                  ++ d_ts d ++ hyp l2 ++ w3 ++ endw ++ w4 ++ hyp r2 ++ d_te d)).
Proof.
  intros F H1 H2 H3 H4 Hw Hew Hb. unfold block.
  set (t1 := d_ts d ++ hyp l1 ++ w1 ++ w ++ w2 ++ hyp r1 ++ d_te d).
  set (t2 := d_ts d ++ hyp l2 ++ w3 ++ endw ++ w4 ++ hyp r2 ++ d_te d) in *.
  assert (E1 : wordtag d w (t1 ++ body ++ t2 ++ rest) = Some (r1, length t1)).
  { unfold t1. norm_app. apply wordtag_ok; auto. }
  rewrite E1, skipn_app_len.
  erewrite find_first_nomatch; [ | exact Hb | unfold t2; norm_app; apply wordtag_ok; auto ].
  rewrite <- !app_length. reflexivity.
Qed.

Lemma m_tag_ok d l w1 name w2 expr w3 r rest : dfacts d ->
  all_space w1 = true -> all_space w2 = true -> all_space w3 = true ->
  stops (name ++ w2 ++ expr ++ w3 ++ hyp r ++ d_te d ++ rest) ->
  hyphen_next (name ++ w2 ++ expr ++ w3 ++ hyp r ++ d_te d ++ rest) = false ->
  name_len (name ++ w2 ++ expr ++ w3 ++ hyp r ++ d_te d ++ rest) = length name ->
  stops (expr ++ w3 ++ hyp r ++ d_te d ++ rest) ->
  nomatch (close (d_te d)) expr (w3 ++ hyp r ++ d_te d ++ rest) = true ->
  m_tag d (d_ts d ++ hyp l ++ w1 ++ name ++ w2 ++ expr ++ w3 ++ hyp r ++ d_te d ++ rest)
  = Some (length (d_ts d ++ hyp l ++ w1), length name, length (d_ts d ++ hyp l ++ w1 ++ name ++ w2), length expr, r,
          length (d_ts d ++ hyp l ++ w1 ++ name ++ w2 ++ expr ++ w3 ++ hyp r ++ d_te d)).
Proof.
  intros F H1 H2 H3 Hst Hhn Hnl Hste Hb. unfold m_tag. rewrite prefixb_app.
  set (X := name ++ w2 ++ expr ++ w3 ++ hyp r ++ d_te d ++ rest) in *.
  (* the scan after the optional hyphen, from the end of any prefix [pre]; offsets are kept as lengths of prefixes *)
  assert (G : forall s pre, skipn (length pre) s = w1 ++ X ->
     (let k2 := length pre + ws_len (skipn (length pre) s) in
      let nlen := name_len (skipn k2 s) in
      let k3 := k2 + nlen in
      let k4 := k3 + ws_len (skipn k3 s) in
      match find_first (close (d_te d)) (skipn k4 s) with
      | Some (j, h, n) => Some (k2, nlen, k4, j, h, k4 + n)
      | None => None
      end) = Some (length (pre ++ w1), length name, length (pre ++ w1 ++ name ++ w2), length expr, r,
                   length (pre ++ w1 ++ name ++ w2 ++ expr ++ w3 ++ hyp r ++ d_te d))).
  { intros s pre Hs. cbv zeta. rewrite !skipn_add, !Hs.
    rewrite (ws_len_app_stops w1 X) by auto. rewrite !skipn_app_len, Hnl.
    unfold X. rewrite !skipn_app_len. rewrite (ws_len_app_stops w2) by auto. rewrite !skipn_app_len.
    rewrite lazy_close by (auto using te_ne, te_nsp, te_nhy).
    rewrite <- !app_length, <- !app_assoc. reflexivity. }
  apply with_hyphen_hyp with (l := l) (X := w1 ++ X).
  - apply skipn_app_len.
  - apply hyphen_next_space_or; auto.
  - cbv beta. rewrite (G _ (d_ts d ++ hyp l)).
    + rewrite <- !app_assoc. reflexivity.
    + rewrite app_assoc. apply skipn_app_len.
Qed.

Lemma m_output_ok d l w1 expr w2 r rest : dfacts d ->
  all_space w1 = true -> all_space w2 = true ->
  stops (expr ++ w2 ++ hyp r ++ d_se d ++ rest) ->
  hyphen_next (expr ++ w2 ++ hyp r ++ d_se d ++ rest) = false ->
  nomatch (close (d_se d)) expr (w2 ++ hyp r ++ d_se d ++ rest) = true ->
  m_output d (d_ss d ++ hyp l ++ w1 ++ expr ++ w2 ++ hyp r ++ d_se d ++ rest)
  = Some (length (d_ss d ++ hyp l ++ w1), length expr, r,
          length (d_ss d ++ hyp l ++ w1 ++ expr ++ w2 ++ hyp r ++ d_se d)).
Proof.
  intros F H1 H2 Hst Hhn Hb. unfold m_output. rewrite prefixb_app.
  set (X := expr ++ w2 ++ hyp r ++ d_se d ++ rest) in *.
  assert (G : forall s pre, skipn (length pre) s = w1 ++ X ->
     (let k2 := length pre + ws_len (skipn (length pre) s) in
      match find_first (close (d_se d)) (skipn k2 s) with
      | Some (j, h, n) => Some (k2, j, h, k2 + n)
      | None => None
      end) = Some (length (pre ++ w1), length expr, r, length (pre ++ w1 ++ expr ++ w2 ++ hyp r ++ d_se d))).
  { intros s pre Hs. cbv zeta. rewrite !skipn_add, !Hs.
    rewrite (ws_len_app_stops w1 X) by auto. rewrite !skipn_app_len. unfold X.
    rewrite lazy_close by (auto using se_ne, se_nsp, se_nhy).
    rewrite <- !app_length, <- !app_assoc. reflexivity. }
  apply with_hyphen_hyp with (l := l) (X := w1 ++ X).
  - apply skipn_app_len.
  - apply hyphen_next_space_or; auto.
  - cbv beta. rewrite (G _ (d_ss d ++ hyp l)).
    + rewrite <- !app_assoc. reflexivity.
    + rewrite app_assoc. apply skipn_app_len.
Qed.

Lemma m_comment_ok d y r rest : dfacts d -> nonempty (d_cs d) = true ->
  nomatch (cclose (d_ce d)) y (hyp r ++ d_ce d ++ rest) = true ->
  m_comment d (d_cs d ++ y ++ hyp r ++ d_ce d ++ rest)
  = Some (length (d_cs d), length y, r, length (d_cs d ++ y ++ hyp r ++ d_ce d)).
Proof.
  intros F Hcs Hy. unfold m_comment. rewrite Hcs, prefixb_app. cbn [andb].
  rewrite skipn_app_len. destruct (cs_facts d F Hcs) as (Hce & _ & _).
  rewrite lazy_cclose by (auto using ce_nhy). rewrite <- !app_length. reflexivity.
Qed.

Lemma m_comment_not d s : (nonempty (d_cs d) = true -> prefixb (d_cs d) s = false) -> m_comment d s = None.
Proof.
  intros H. unfold m_comment. destruct (nonempty (d_cs d)); cbn [andb]; auto. rewrite H; auto.
Qed.

Lemma delim_at_none d s : delim_at d s = None ->
  prefixb (d_ts d) s = false /\ prefixb (d_ss d) s = false /\ (nonempty (d_cs d) = true -> prefixb (d_cs d) s = false).
Proof.
  unfold delim_at. destruct (prefixb (d_ts d) s); [discriminate|].
  destruct (prefixb (d_ss d) s); [discriminate|].
  destruct (nonempty (d_cs d)); cbn [andb]; [|intros; repeat split; auto; discriminate].
  destruct (prefixb (d_cs d) s); [discriminate|]. auto.
Qed.

(* what follows a text: the end of the source, or something at which the look-ahead sees a delimiter *)
Definition follows (d : delims) (after : str) (h : bool) : Prop :=
  (after = [] /\ h = false) \/ delim_at d after = Some h.

Lemma content_from_clean d t after h : dfacts d -> clean d t after = true -> follows d after h ->
  content_from d false (t ++ after) = (length t, h).
Proof.
  intros F Ht Hf. induction t as [|c t IH].
  - simpl app. destruct Hf as [[-> ->]|Hd].
    + simpl. unfold delim_at. rewrite !prefixb_nil by apply F.
      destruct (nonempty (d_cs d)) eqn:E; cbn [andb]; auto. rewrite prefixb_nil; auto.
    + destruct after; simpl; rewrite Hd; reflexivity.
  - apply nomatch_cons in Ht as [H0 Ht]. simpl app in *. cbn [content_from].
    rewrite H0. cbn [andb]. rewrite IH by auto. reflexivity.
Qed.

Lemma match_at_text d q c t after h : dfacts d -> q_dollar q = false ->
  clean d (c :: t) after = true -> follows d after h ->
  match_at d q ((c :: t) ++ after) = MContent (length (c :: t)) h.
Proof.
  intros F Hq Ht Hf. pose proof Ht as Ht'. apply nomatch_cons in Ht' as [H0 _].
  destruct (delim_at_none d _ H0) as (Pts & Pss & Pcs).
  unfold match_at. unfold block. rewrite !wordtag_not_ts by exact Pts.
  rewrite m_comment_not by exact Pcs.
  unfold m_output. rewrite Pss. unfold m_tag. rewrite Pts.
  simpl app. cbn [tl]. change (c :: t ++ after) with ((c :: t) ++ after) in *.
  rewrite Hq. apply nomatch_cons in Ht as [_ Ht]. rewrite content_from_clean with (h := h) by auto. reflexivity.
Qed.

Lemma word_len_after_name w2 (X : str) :
  all_space w2 = true -> (is_word (hd0 X) = false) -> word_len (w2 ++ X) = 0.
Proof.
  intros H HX. destruct w2 as [|c w2].
  - destruct X; [reflexivity|]. apply word_len_stop. exact HX.
  - simpl in H. apply andb_true_iff in H as [Hc _]. cbn [app]. apply word_len_stop, space_not_word; auto.
Qed.

Lemma word_stop d w2 r rest : dfacts d -> all_space w2 = true -> word_len (w2 ++ hyp r ++ d_te d ++ rest) = 0.
Proof.
  intros F H. apply word_len_after_name; auto. destruct r; cbn [hyp app]; [apply hy_not_word|].
  pose proof (te_ne d F) as Hne. pose proof (te_nw d F) as Hw.
  destruct (d_te d); cbn [nonempty hd0 app] in *; [discriminate|exact Hw].
Qed.

Lemma word_not_hash c : is_word c = true -> N.eqb c hash = false.
Proof. unfold is_word, hash. intros H. lia. Qed.

Section Shapes.
  Variable d : delims.
  Variable q : quirks.
  Hypothesis F : dfacts d.

  Lemma ts_not_ss s : prefixb (d_ts d) (d_ss d ++ s) = false.
  Proof. apply clash_false, F. Qed.
  Lemma ss_not_ts s : prefixb (d_ss d) (d_ts d ++ s) = false.
  Proof. apply clash_false. rewrite clash_sym. apply F. Qed.
  Lemma cs_not_ts s : nonempty (d_cs d) = true -> prefixb (d_cs d) (d_ts d ++ s) = false.
  Proof. intros H. apply clash_false. apply (cs_facts d F H). Qed.
  Lemma cs_not_ss s : nonempty (d_cs d) = true -> prefixb (d_cs d) (d_ss d ++ s) = false.
  Proof. intros H. apply clash_false. apply (cs_facts d F H). Qed.
  Lemma ts_not_cs s : nonempty (d_cs d) = true -> prefixb (d_ts d) (d_cs d ++ s) = false.
  Proof. intros H. apply clash_false. rewrite clash_sym. apply (cs_facts d F H). Qed.
  Lemma ss_not_cs s : nonempty (d_cs d) = true -> prefixb (d_ss d) (d_cs d ++ s) = false.
  Proof. intros H. apply clash_false. rewrite clash_sym. apply (cs_facts d F H). Qed.

  (* a tag  ts[-] w1 name w2 expr w3 [-]te  whose name is neither raw nor doc *)
  Lemma match_at_tag l w1 name w2 expr w3 r rest :
    all_space w1 = true -> all_space w2 = true -> all_space w3 = true ->
    stops (name ++ w2 ++ expr ++ w3 ++ hyp r ++ d_te d ++ rest) ->
    hyphen_next (name ++ w2 ++ expr ++ w3 ++ hyp r ++ d_te d ++ rest) = false ->
    name_len (name ++ w2 ++ expr ++ w3 ++ hyp r ++ d_te d ++ rest) = length name ->
    stops (expr ++ w3 ++ hyp r ++ d_te d ++ rest) ->
    nomatch (close (d_te d)) expr (w3 ++ hyp r ++ d_te d ++ rest) = true ->
    (forall Y, prefixb w_raw (name ++ Y) = false) -> (forall Y, prefixb w_doc (name ++ Y) = false) ->
    match_at d q (d_ts d ++ hyp l ++ w1 ++ name ++ w2 ++ expr ++ w3 ++ hyp r ++ d_te d ++ rest)
    = MTag (length (d_ts d ++ hyp l ++ w1)) (length name) (length (d_ts d ++ hyp l ++ w1 ++ name ++ w2))
           (length expr) r (length (d_ts d ++ hyp l ++ w1 ++ name ++ w2 ++ expr ++ w3 ++ hyp r ++ d_te d)).
  Proof.
    intros H1 H2 H3 Hst Hhn Hnl Hste Hb Hraw Hdoc. unfold match_at, block.
    rewrite (wordtag_mismatch d w_raw) by (auto using word_ok_raw).
    rewrite (wordtag_mismatch d w_doc) by (auto using word_ok_doc).
    rewrite m_comment_not by (intros; apply cs_not_ts; auto).
    unfold m_output. rewrite ss_not_ts.
    rewrite m_tag_ok by auto. reflexivity.
  Qed.

  (* a tag that consists of a word (not raw, not doc) and has no expression *)
  Lemma match_at_wtag l w1 name w2 r rest :
    all_space w1 = true -> all_space w2 = true -> word_ok name -> forallb is_word name = true ->
    (forall Y, prefixb w_raw (name ++ Y) = false) -> (forall Y, prefixb w_doc (name ++ Y) = false) ->
    match_at d q (wtag d l w1 name w2 r ++ rest)
    = MTag (length (d_ts d ++ hyp l ++ w1)) (length name) (length (d_ts d ++ hyp l ++ w1 ++ name ++ w2)) 0 r
           (length (wtag d l w1 name w2 r)).
  Proof.
    intros H1 H2 Hn Hw Hraw Hdoc. unfold wtag. norm_app.
    pose proof (match_at_tag l w1 name w2 [] [] r rest) as HT. cbn [app length] in HT.
    apply HT; auto using word_ok_stops, hyphen_next_word.
    - destruct name as [|c name']; [destruct Hn; discriminate|].
      pose proof Hw as Hc. cbn [forallb] in Hc. apply andb_true_iff in Hc as [Hc _].
      cbn [app name_len]. rewrite (word_not_hash c Hc).
      change (c :: name' ++ w2 ++ hyp r ++ d_te d ++ rest) with ((c :: name') ++ w2 ++ hyp r ++ d_te d ++ rest).
      rewrite word_len_app, word_stop by auto. apply Nat.add_0_r.
    - apply stops_hyp_e; apply F.
  Qed.

  Lemma match_at_out l w1 expr w2 r rest :
    all_space w1 = true -> all_space w2 = true ->
    stops (expr ++ w2 ++ hyp r ++ d_se d ++ rest) ->
    hyphen_next (expr ++ w2 ++ hyp r ++ d_se d ++ rest) = false ->
    nomatch (close (d_se d)) expr (w2 ++ hyp r ++ d_se d ++ rest) = true ->
    match_at d q (d_ss d ++ hyp l ++ w1 ++ expr ++ w2 ++ hyp r ++ d_se d ++ rest)
    = MOutput (length (d_ss d ++ hyp l ++ w1)) (length expr) r
              (length (d_ss d ++ hyp l ++ w1 ++ expr ++ w2 ++ hyp r ++ d_se d)).
  Proof.
    intros H1 H2 Hst Hhn Hb. unfold match_at, block.
    rewrite !wordtag_not_ts by apply ts_not_ss.
    rewrite m_comment_not by (intros; apply cs_not_ss; auto).
    rewrite m_output_ok by auto. reflexivity.
  Qed.

  Lemma match_at_raw l1 w1 w2 r1 body l2 w3 w4 r2 rest :
    all_space w1 = true -> all_space w2 = true -> all_space w3 = true -> all_space w4 = true ->
    nomatch (wordtag d w_endraw) body (wtag d l2 w3 w_endraw w4 r2 ++ rest) = true ->
    match_at d q (wtag d l1 w1 w_raw w2 r1 ++ body ++ wtag d l2 w3 w_endraw w4 r2 ++ rest)
    = MRaw r1 r2 (length (wtag d l1 w1 w_raw w2 r1)) (length body)
           (length (wtag d l1 w1 w_raw w2 r1 ++ body ++ wtag d l2 w3 w_endraw w4 r2)).
  Proof.
    intros. unfold match_at, wtag in *. rewrite block_ok by (auto using word_ok_raw, word_ok_endraw). reflexivity.
  Qed.

  Lemma match_at_doc l1 w1 w2 r1 body l2 w3 w4 r2 rest :
    all_space w1 = true -> all_space w2 = true -> all_space w3 = true -> all_space w4 = true ->
    nomatch (wordtag d w_enddoc) body (wtag d l2 w3 w_enddoc w4 r2 ++ rest) = true ->
    match_at d q (wtag d l1 w1 w_doc w2 r1 ++ body ++ wtag d l2 w3 w_enddoc w4 r2 ++ rest)
    = MDoc r1 r2 (length (wtag d l1 w1 w_doc w2 r1)) (length body)
           (length (wtag d l1 w1 w_doc w2 r1 ++ body ++ wtag d l2 w3 w_enddoc w4 r2)).
  Proof.
    intros. unfold match_at.
    assert (E : block d w_raw w_endraw (wtag d l1 w1 w_doc w2 r1 ++ body ++ wtag d l2 w3 w_enddoc w4 r2 ++ rest) = None).
    { unfold block, wtag. norm_app. rewrite (wordtag_mismatch d w_raw); auto using word_ok_raw; reflexivity. }
    rewrite E. unfold wtag in *. rewrite block_ok by (auto using word_ok_doc, word_ok_enddoc). reflexivity.
  Qed.

  Lemma match_at_short y r rest : nonempty (d_cs d) = true ->
    nomatch (cclose (d_ce d)) y (hyp r ++ d_ce d ++ rest) = true ->
    match_at d q (d_cs d ++ y ++ hyp r ++ d_ce d ++ rest)
    = MComment (length (d_cs d)) (length y) r (length (d_cs d ++ y ++ hyp r ++ d_ce d)).
  Proof.
    intros Hcs Hy. unfold match_at, block.
    rewrite !wordtag_not_ts by (apply ts_not_cs; auto).
    rewrite m_comment_ok by auto. reflexivity.
  Qed.
End Shapes.
