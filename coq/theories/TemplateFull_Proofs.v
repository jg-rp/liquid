(* Whole templates: parsing the serialisation of a tree with structured payloads gives the tree back.
   Composition of TagTree_Proofs.parse_print_template (tag structure) with ExprSyntax_Tags_Proofs.payload_roundtrip (every payload),
   ExprSyntax_Proofs.expr_roundtrip (output statements) and CondParen_Proofs.print2_roundtrip (if / elsif / unless). *)
From LiquidVerif Require Import Prelude PyPrims Cond CondPrint Cond_Proofs CondParen CondParen_Proofs StrLit PathSyntax PathSyntax_Proofs
  TagTree TagTree_Proofs ExprSyntax ExprSyntax_Proofs ExprSyntax_Tags_Proofs TemplateFull.

Lemma all_in {A} (P : A -> Prop) l x : all P l -> In x l -> P x.
Proof. induction l as [|y r IH]; cbn; [tauto|]. intros [Hy Hr] [->|Hi]; [exact Hy|apply IH; assumption]. Qed.

Lemma res_map_inv {A B} (f : A -> res B) (g : B -> A) l : (forall x, In x l -> f (g x) = Ok x) -> res_map f (map g l) = Ok l.
Proof.
  induction l as [|x r IH]; intro H; [reflexivity|]. cbn [map res_map]. rewrite (H x (or_introl eq_refl)).
  rewrite IH by (intros y Hy; apply H; right; exact Hy). reflexivity.
Qed.

Fixpoint fsize (n : fnode) : nat :=
  match n with
  | FBlock _ _ body secs => S (list_sum (map fsize body) + list_sum (map (fun s => list_sum (map fsize (snd s))) secs))
  | _ => 1
  end.

Lemma in_sum {A} (f : A -> nat) l x : In x l -> f x <= list_sum (map f l).
Proof.
  unfold list_sum. induction l as [|y r IH]; cbn [In map fold_right]; [tauto|]. intros [->|Hi]; [lia|]. specialize (IH Hi). lia.
Qed.

Section FullProofs.
  Variable is_prop : str -> bool.
  Hypothesis is_prop_not_kw : forall s, is_prop s = true -> is_kw s = false.
  Variable render : list etok -> str.
  Variable lex : str -> res (list etok).
  Variable tag_kind : str -> tagkind.
  Hypothesis Hreg : reg_ok tag_kind.
  Variable tpk_of : str -> tpk.
  Local Notation pay_text := (TemplateFull.pay_text is_prop render).
  Local Notation unstruct := (TemplateFull.unstruct is_prop render).
  Local Notation decode_pay := (TemplateFull.decode_pay lex tpk_of).
  Local Notation decode := (TemplateFull.decode lex tpk_of).
  Local Notation pay_ok := (TemplateFull.pay_ok is_prop render lex tpk_of).
  Local Notation ok := (TemplateFull.ok is_prop render lex tpk_of).
  Local Notation wf_full := (TemplateFull.wf_full is_prop render lex tag_kind tpk_of).
  Local Notation print_template_full := (TemplateFull.print_template_full is_prop render).
  Local Notation parse_template_full := (TemplateFull.parse_template_full lex tag_kind tpk_of).

  (* a tag's own parser reads back the payload the tag's __str__ wrote *)
  Lemma decode_pay_ok name p : pay_ok name p -> decode_pay name (pay_text p) = Ok p.
  Proof.
    unfold TemplateFull.pay_ok, TemplateFull.decode_pay. destruct (tpk_of name) as [k| | |]; destruct p as [y|c| |s]; try contradiction.
    - intros (Hwf & Hk & Hl). cbn [TemplateFull.pay_text TemplateFull.pay_toks]. rewrite Hl. cbn [bind].
      destruct Hk as [->|[-> [s ->]]].
      + rewrite (payload_roundtrip is_prop is_prop_not_kw y Hwf). reflexivity.
      + rewrite (capture_roundtrip is_prop is_prop_not_kw s). reflexivity.
    - intro Hl. cbn [TemplateFull.pay_text TemplateFull.pay_toks]. rewrite Hl. cbn [bind]. rewrite to_ctok_cond, print2_roundtrip. reflexivity.
    - reflexivity.
    - reflexivity.
  Qed.

  Lemma decode_unstruct_k : forall k n, fsize n <= k -> ok n -> decode (unstruct n) = Ok n.
  Proof.
    induction k as [|k IH]; intros n Hs Hok; [destruct n; cbn in Hs; lia|].
    destruct n as [s|s|s|e|name p|name p body secs]; try reflexivity.
    - destruct Hok as [Hwf Hl]. cbn [TemplateFull.unstruct TemplateFull.decode]. rewrite Hl. cbn [bind].
      rewrite (expr_roundtrip is_prop is_prop_not_kw e Hwf). reflexivity.
    - cbn [TemplateFull.unstruct TemplateFull.decode]. cbn [TemplateFull.ok] in Hok. rewrite (decode_pay_ok name p Hok). reflexivity.
    - cbn [TemplateFull.ok] in Hok. destruct Hok as (Hp & Hb & Hss). cbn [fsize] in Hs.
      cbn [TemplateFull.unstruct TemplateFull.decode]. rewrite (decode_pay_ok name p Hp). cbn [bind].
      rewrite (res_map_inv decode unstruct body).
      2:{ intros m Hm. apply IH; [pose proof (in_sum fsize body m Hm); lia|exact (all_in _ body m Hb Hm)]. }
      cbn [bind].
      rewrite (res_map_inv _ (fun s => (fst (fst s), pay_text (snd (fst s)), map unstruct (snd s))) secs).
      + reflexivity.
      + intros [[sn sp] sb] Hin. cbn [fst snd].
        pose proof (all_in _ secs _ Hss Hin) as [Hsp Hsb]. cbn [fst snd] in Hsp, Hsb.
        rewrite (decode_pay_ok sn sp Hsp). cbn [bind].
        rewrite (res_map_inv decode unstruct sb); [reflexivity|].
        intros m Hm. apply IH; [|exact (all_in _ sb m Hsb Hm)].
        pose proof (in_sum fsize sb m Hm). pose proof (in_sum (fun s => list_sum (map fsize (snd s))) secs _ Hin) as Hsec. cbn [snd] in Hsec. lia.
  Qed.

  Lemma decode_unstruct n : ok n -> decode (unstruct n) = Ok n.
  Proof. apply (decode_unstruct_k (fsize n)). lia. Qed.

  (* C04 (whole templates): for EVERY well-formed template tree with structured payloads -- any nesting of block tags with their
     sections, every tag's expression a well-formed payload, every condition tree -- the block parser followed by each tag's own
     expression parser reads back from the serialisation exactly the tree that was serialised *)
  Theorem full_roundtrip t : wf_full t -> parse_template_full (print_template_full t) = Ok t.
  Proof.
    intros [Hshape Hok]. unfold TemplateFull.parse_template_full, TemplateFull.print_template_full.
    rewrite (parse_print_template tag_kind Hreg _ Hshape). cbn [bind].
    apply res_map_inv. intros n Hn. apply decode_unstruct. exact (all_in _ t n Hok Hn).
  Qed.

  (* ... so the re-parsed template IS the original tree (it renders identically on every data, being the same tree), and serialising it
     again gives the same tokens *)
  Corollary full_same_tree t : wf_full t ->
    exists t', parse_template_full (print_template_full t) = Ok t' /\ t' = t /\ print_template_full t' = print_template_full t.
  Proof. intro H. exists t. rewrite (full_roundtrip t H). repeat split. Qed.

  (* from SOURCE tokens: if the parser accepts them and the tree is well formed, str() of the parsed template parses to the same
     tree, and a second str() gives the same tokens *)
  Corollary full_idempotent ts t : parse_template_full ts = Ok t -> wf_full t ->
    exists t', parse_template_full (print_template_full t) = Ok t' /\ print_template_full t' = print_template_full t.
  Proof. intros _ H. exists t. rewrite (full_roundtrip t H). split; reflexivity. Qed.

End FullProofs.

(* ---- the standard register and payload kinds; the lexer hypothesis is satisfiable ---- *)
From Coq Require Import String.
Local Open Scope string_scope. Local Open Scope list_scope.

Theorem std_full_roundtrip render lex t : wf_full expr_is_prop render lex std_kind std_tpk t ->
  parse_template_full lex std_kind std_tpk (print_template_full expr_is_prop render t) = Ok t.
Proof. apply full_roundtrip; [exact expr_is_prop_not_kw|exact std_reg_ok]. Qed.

(* a template that uses every payload kind, with a lexer given as a finite table for exactly its expressions *)

Definition demo_tree : list fnode :=
  [ FText (slit "a");
    FOut (XFilt {| fe_left := v1 "x"; fe_filters := [{| f_name := lit "f"; f_args := [APos (PInt 1); AKw (lit "k") (v1 "v")] |}] |});
    FInline (slit "assign") (FP (YAssign (lit "z") (XFilt {| fe_left := PStr (lit "s"); fe_filters := [] |})));
    FBlock (slit "if") (FCond (BOr (BAnd (BVar (lit "a")) (BVar (lit "b"))) (BVar (lit "c"))))
      [FInline (slit "increment") (FP (YIdent (lit "n")))]
      [(slit "elsif", FCond (BNot (BVar (lit "a"))), [FRaw (slit "{{")]); (slit "else", FNone, [FInline (slit "liquid") (FOpaque (slit "echo x"))])];
    FBlock (slit "for") (FP (YLoop {| lp_id := lit "i"; lp_iter := PRange (PInt 1) (v1 "n"); lp_limit := Some (PInt 2); lp_offset := None;
                                      lp_cols := None; lp_rev := true |}))
      [FBlock (slit "case") (FP (YCase (v1 "i"))) [] [(slit "when", FP (YWhen [PInt 1; PStr (lit "a")]), [FInline (slit "break") FNone]); (slit "else", FNone, [])]]
      [(slit "else", FNone, [FInline (slit "cycle") (FP (YCycle (Some (PStr (lit "g"))) [PInt 1; PInt 2]))])];
    FBlock (slit "capture") (FP (YIdent (lit "c"))) [FInline (slit "include") (FP (YInclude {| in_name := PStr (lit "p"); in_bind := Some ([SName (lit "x")], Some (lit "y")); in_args := [(lit "k", PInt 1)] |}))] [] ].

(* render: a self-delimiting spelling is not needed for the witness -- the text of a token list is any injective code on the lists
   that occur; here the position in the table *)
Definition demo_exprs : list (list etok) :=
  let p := print_payload expr_is_prop in
  [ print_expr expr_is_prop (XFilt {| fe_left := v1 "x"; fe_filters := [{| f_name := lit "f"; f_args := [APos (PInt 1); AKw (lit "k") (v1 "v")] |}] |});
    p (YAssign (lit "z") (XFilt {| fe_left := PStr (lit "s"); fe_filters := [] |}));
    map ECond (print2 (BOr (BAnd (BVar (lit "a")) (BVar (lit "b"))) (BVar (lit "c"))));
    p (YIdent (lit "n")); map ECond (print2 (BNot (BVar (lit "a"))));
    p (YLoop {| lp_id := lit "i"; lp_iter := PRange (PInt 1) (v1 "n"); lp_limit := Some (PInt 2); lp_offset := None; lp_cols := None; lp_rev := true |});
    p (YCase (v1 "i")); p (YWhen [PInt 1; PStr (lit "a")]); p (YCycle (Some (PStr (lit "g"))) [PInt 1; PInt 2]); p (YIdent (lit "c"));
    p (YInclude {| in_name := PStr (lit "p"); in_bind := Some ([SName (lit "x")], Some (lit "y")); in_args := [(lit "k", PInt 1)] |}) ].
Fixpoint index_of (ts : list etok) (l : list (list etok)) (i : N) : N :=
  match l with [] => i | x :: r => if list_eqb etok_eqb ts x then i else index_of ts r (N.succ i) end.
Definition demo_render (ts : list etok) : str := [index_of ts demo_exprs 65%N].
Definition demo_lex (s : str) : res (list etok) :=
  match s with [c] => match nth_error demo_exprs (N.to_nat (c - 65)) with Some ts => Ok ts | None => Err ESyntax end | _ => Err ESyntax end.

Example demo_wf_full : wf_full expr_is_prop demo_render demo_lex std_kind std_tpk demo_tree.
Proof. split; [vm_compute; reflexivity|]. vm_compute. repeat split; try (left; reflexivity); try (right; split; [reflexivity|eexists; reflexivity]). Qed.

Example demo_roundtrip :
  parse_template_full demo_lex std_kind std_tpk (print_template_full expr_is_prop demo_render demo_tree) = Ok demo_tree.
Proof. vm_compute. reflexivity. Qed.
