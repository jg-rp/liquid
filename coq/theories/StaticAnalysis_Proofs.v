(* C19 -- proofs about StaticAnalysis.v.
   Part 1: facts about the walk (monotonicity, what a visit records, how the scope grows, which partials
           have been walked by the time the analysis returns).
   Part 2: a simulation lemma, generic in the notion of "covered at sigma", for the tracing interpreter.
   Part 3: the two instances: full visits cover variables/filters/tags; any visit covers the globals clause.
   Last: the programs and render data that the witnesses and examples of Props/C19.v evaluate. *)
From LiquidVerif Require Import Prelude StaticAnalysis.
Import ListNotations.

Lemma mem_In x l : mem x l = true <-> In x l.
Proof.
  unfold mem. rewrite existsb_exists. split.
  - intros (y & Hy & E). apply str_eqb_eq in E. subst. exact Hy.
  - intro H. exists x. split; [exact H | apply str_eqb_refl].
Qed.

Lemma mem_false_not_In x l : mem x l = false -> ~ In x l.
Proof. intros H Hin. apply mem_In in Hin. congruence. Qed.

Lemma subset_incl a b : subset a b = true -> incl a b.
Proof.
  unfold subset. rewrite forallb_forall. intros H x Hx. apply mem_In. apply H. exact Hx.
Qed.

Lemma subset_refl a : subset a a = true.
Proof. apply forallb_forall. intros x Hx. apply mem_In. exact Hx. Qed.

Lemma set_eqb_incl a b : set_eqb a b = true -> incl a b /\ incl b a.
Proof. unfold set_eqb. rewrite andb_true_iff. intros [H1 H2]. split; apply subset_incl; assumption. Qed.

Lemma alookup_In {V} k (l : list (str * V)) v : alookup k l = Some v -> In (k, v) l.
Proof. exact (Prelude.alookup_In k l v). Qed.

Lemma seqM_app {A S} (step : A -> S -> res S) l1 l2 s s' :
  seqM step (l1 ++ l2) s = Ok s' -> exists m, seqM step l1 s = Ok m /\ seqM step l2 m = Ok s'.
Proof.
  revert s. induction l1 as [|a l1 IH]; simpl; intros s H.
  - exists s; split; [reflexivity | exact H].
  - destruct (step a s) as [s1| |]; [exact (IH _ H) | discriminate..].
Qed.

(* a preorder that every step respects is respected by a sequence of steps *)
Lemma seqM_rel {A S} (step : A -> S -> res S) (R : S -> S -> Prop) :
  (forall s, R s s) -> (forall a b c, R a b -> R b c -> R a c) ->
  (forall x a b, step x a = Ok b -> R a b) -> forall l a b, seqM step l a = Ok b -> R a b.
Proof.
  intros Hrefl Htrans Hstep. induction l as [|x l IH]; simpl; intros a b H.
  - inversion H. apply Hrefl.
  - apply bind_ok in H. destruct H as (m & E & H). exact (Htrans _ _ _ (Hstep _ _ _ E) (IH _ _ H)).
Qed.

Lemma flatM_cons {A B} (f : A -> res (list B)) x l r :
  flatM f (x :: l) = Ok r -> exists a b, f x = Ok a /\ flatM f l = Ok b /\ r = a ++ b.
Proof.
  simpl. intro H. apply bind_ok in H. destruct H as (a & Ea & H). apply bind_ok in H. destruct H as (b & Eb & H).
  inversion H. exists a, b. auto.
Qed.

Lemma flatM_app {A B} (f : A -> res (list B)) l1 l2 r :
  flatM f (l1 ++ l2) = Ok r -> exists a b, flatM f l1 = Ok a /\ flatM f l2 = Ok b /\ r = a ++ b.
Proof.
  revert r. induction l1 as [|x l1 IH]; intros r H.
  - exists [], r. repeat split; assumption.
  - apply flatM_cons in H. destruct H as (a1 & r1 & E1 & E2 & ->). destruct (IH _ E2) as (a & b & Ha & Hb & ->).
    exists (a1 ++ a), b. simpl. rewrite E1, Ha. repeat split; [assumption | apply app_assoc].
Qed.

Lemma fold_left_keep {X S Y} (f : S -> X -> S) (g : S -> Y) :
  (forall s x, g (f s x) = g s) -> forall l s, g (fold_left f l s) = g s.
Proof. intro Hf. induction l as [|x l IH]; simpl; intro s; [reflexivity | rewrite IH; apply Hf]. Qed.

(* ------------------------------------------------------------------ the seen map *)
Lemma seen_get_add_other m n k sn : m <> n -> seen_get m (seen_add n k sn) = seen_get m sn.
Proof.
  intro Hne. unfold seen_get. induction sn as [|[n' l] sn IH]; simpl.
  - destruct (str_eqb_spec m n); [contradiction | reflexivity].
  - destruct (str_eqb_spec n n') as [->|Hn]; simpl.
    + destruct (str_eqb_spec m n'); [contradiction | reflexivity].
    + destruct (str_eqb_spec m n'); [reflexivity | exact IH].
Qed.

Lemma seen_get_add_same n k sn :
  seen_get n (seen_add n k sn) = if skey_in k (seen_get n sn) then seen_get n sn else seen_get n sn ++ [k].
Proof.
  unfold seen_get. induction sn as [|[n' l] sn IH]; simpl.
  - rewrite str_eqb_refl. reflexivity.
  - destruct (str_eqb_spec n n') as [->|Hn]; simpl.
    + rewrite str_eqb_refl. destruct (skey_in k l); reflexivity.
    + destruct (str_eqb_spec n n'); [contradiction | exact IH].
Qed.

Lemma seen_add_mono m n k k0 sn : In k0 (seen_get m sn) -> In k0 (seen_get m (seen_add n k sn)).
Proof.
  intro H. destruct (str_eqb_spec m n) as [->|Hne].
  - rewrite seen_get_add_same. destruct (skey_in k (seen_get n sn)); [exact H | apply in_or_app; left; exact H].
  - rewrite seen_get_add_other by exact Hne. exact H.
Qed.

Lemma seen_add_new m n k k0 sn :
  In k0 (seen_get m (seen_add n k sn)) -> In k0 (seen_get m sn) \/ (m = n /\ k0 = k).
Proof.
  destruct (str_eqb_spec m n) as [->|Hne].
  - rewrite seen_get_add_same. destruct (skey_in k (seen_get n sn)); [auto|].
    intro H. apply in_app_or in H. destruct H as [H|[H|[]]]; [left; exact H | right; split; congruence].
  - rewrite seen_get_add_other by exact Hne. auto.
Qed.

Lemma skey_eqb_refl k : skey_eqb k k = true.
Proof.
  destruct k as [|[l|] v]; simpl; [reflexivity | |]; unfold set_eqb; rewrite subset_refl; [|reflexivity].
  rewrite (proj2 (list_eqb_eq str_eqb str_eqb_eq l l) eq_refl). reflexivity.
Qed.

Lemma skey_in_has k l : skey_in k l = true -> exists k', In k' l /\ skey_eqb k k' = true.
Proof. apply existsb_exists. Qed.

Lemma seen_add_has n k sn : exists k', In k' (seen_get n (seen_add n k sn)) /\ skey_eqb k k' = true.
Proof.
  rewrite seen_get_add_same. destruct (skey_in k (seen_get n sn)) eqn:E; [exact (skey_in_has _ _ E)|].
  exists k. split; [apply in_elt | apply skey_eqb_refl].
Qed.

Lemma seen_dom_add m n k sn : seen_dom m (seen_add n k sn) = seen_dom m sn || str_eqb m n.
Proof.
  unfold seen_dom. induction sn as [|[n' l] sn IH]; simpl.
  - apply orb_false_r.
  - destruct (str_eqb_spec n n') as [->|Hn]; simpl.
    + destruct (str_eqb m n'); simpl; [reflexivity | symmetry; apply orb_false_r].
    + rewrite IH. destruct (str_eqb m n'); reflexivity.
Qed.

Lemma seen_get_dom m k sn : In k (seen_get m sn) -> seen_dom m sn = true.
Proof.
  unfold seen_get, seen_dom. induction sn as [|[n' l] sn IH]; simpl; [intros []|].
  destruct (str_eqb m n'); simpl; [reflexivity | exact IH].
Qed.

(* ------------------------------------------------------------------ the order on analysis states *)
(* a_scope and a_locals are not compared *)
Definition le_st (a b : astate) : Prop :=
  incl (a_vars a) (a_vars b) /\ incl (a_globals a) (a_globals b) /\
  incl (a_filters a) (a_filters b) /\ incl (a_tags a) (a_tags b) /\
  (forall m k, In k (seen_get m (a_seen a)) -> In k (seen_get m (a_seen b))) /\
  (forall m, seen_dom m (a_seen a) = true -> seen_dom m (a_seen b) = true).

Lemma le_vars a b : le_st a b -> incl (a_vars a) (a_vars b). Proof. intro H; apply H. Qed.
Lemma le_globals a b : le_st a b -> incl (a_globals a) (a_globals b). Proof. intro H; apply H. Qed.
Lemma le_filters a b : le_st a b -> incl (a_filters a) (a_filters b). Proof. intro H; apply H. Qed.
Lemma le_tags a b : le_st a b -> incl (a_tags a) (a_tags b). Proof. intro H; apply H. Qed.
Lemma le_seen a b : le_st a b -> forall m k, In k (seen_get m (a_seen a)) -> In k (seen_get m (a_seen b)).
Proof. intro H; apply H. Qed.
Lemma le_dom a b : le_st a b -> forall m, seen_dom m (a_seen a) = true -> seen_dom m (a_seen b) = true.
Proof. intro H; apply H. Qed.

Lemma le_refl a : le_st a a.
Proof. unfold le_st; repeat split; auto using incl_refl. Qed.

Lemma le_trans a b c : le_st a b -> le_st b c -> le_st a c.
Proof.
  intros (A1 & A2 & A3 & A4 & A5 & A6) (B1 & B2 & B3 & B4 & B5 & B6).
  repeat split; [eapply incl_tran; eassumption.. | auto | auto].
Qed.

Lemma le_set_scope s a : le_st a (set_scope s a).
Proof. exact (le_refl a). Qed.

Lemma le_set_scope_l s a b : le_st a b -> le_st (set_scope s a) b.
Proof. exact (fun H => H). Qed.

Lemma le_seen_add n k a : le_st a (set_seen (seen_add n k (a_seen a)) a).
Proof.
  unfold le_st; simpl; repeat split; try apply incl_refl.
  - intros m k0. apply seen_add_mono.
  - intros m H. rewrite seen_dom_add, H. reflexivity.
Qed.

Lemma fold_le {X} (f : astate -> X -> astate) (Hf : forall st x, le_st st (f st x)) l st : le_st st (fold_left f l st).
Proof. revert st. induction l as [|x l IH]; simpl; intro st; [apply le_refl | eapply le_trans; [apply Hf | apply IH]]. Qed.

(* the step for an element of the list is taken at some point of the fold, and nothing is lost afterwards *)
Lemma fold_le_at {X} (f : astate -> X -> astate) (Hf : forall st x, le_st st (f st x)) l x st :
  In x l -> exists l1, le_st (f (fold_left f l1 st) x) (fold_left f l st).
Proof. intro H. destruct (in_split _ _ H) as (l1 & l2 & ->). exists l1. rewrite fold_left_app. exact (fold_le f Hf l2 _). Qed.

(* ------------------------------------------------------------------ what pre_visit records *)
Lemma record_path_le jg p st : le_st st (record_path jg p st).
Proof.
  unfold record_path. set (st1 := if jg then st else _). apply le_trans with st1.
  - unfold st1. destruct jg; [apply le_refl|]. unfold le_st; simpl; repeat split; auto using incl_refl, incl_appl.
  - destruct (sc_mem _ _); [apply le_refl|].
    unfold le_st; simpl; repeat split; auto using incl_refl, incl_appl.
Qed.

Lemma record_path_scope jg p st : a_scope (record_path jg p st) = a_scope st.
Proof. unfold record_path. destruct jg; simpl; destruct (sc_mem _ _); reflexivity. Qed.

Lemma record_path_seen jg p st : a_seen (record_path jg p st) = a_seen st.
Proof. unfold record_path. destruct jg; simpl; destruct (sc_mem _ _); reflexivity. Qed.

Lemma record_path_var p st : In p (a_vars (record_path false p st)).
Proof. unfold record_path. simpl. destruct (sc_mem _ _); apply in_elt. Qed.

Lemma record_path_global jg p st : sc_mem (p_root p) (a_scope st) = false -> In p (a_globals (record_path jg p st)).
Proof. intro H. unfold record_path. destruct jg; simpl; rewrite H; apply in_elt. Qed.

(* the step of the fold in record_expr *)
Definition record_paths jg := fun s p => record_path jg p s.

Lemma record_expr_le jg st e : le_st st (record_expr jg st e).
Proof.
  unfold record_expr. eapply le_trans.
  - apply (fold_le (record_paths jg)). intros; apply record_path_le.
  - destruct jg; [apply le_refl|]. unfold le_st; simpl; repeat split; auto using incl_refl, incl_appl.
Qed.

Lemma record_expr_scope jg st e : a_scope (record_expr jg st e) = a_scope st.
Proof.
  unfold record_expr. rewrite <- (fold_left_keep (record_paths jg) a_scope (fun s p => record_path_scope jg p s) (expr_paths e) st).
  destruct jg; reflexivity.
Qed.

Lemma record_expr_seen jg st e : a_seen (record_expr jg st e) = a_seen st.
Proof.
  unfold record_expr. rewrite <- (fold_left_keep (record_paths jg) a_seen (fun s p => record_path_seen jg p s) (expr_paths e) st).
  destruct jg; reflexivity.
Qed.

Lemma record_expr_global jg st e p :
  In p (expr_paths e) -> sc_mem (p_root p) (a_scope st) = false -> In p (a_globals (record_expr jg st e)).
Proof.
  intros Hp Hs.
  destruct (fold_le_at (record_paths jg) (fun s q => record_path_le jg q s) _ p st Hp) as (l1 & Hle).
  apply le_globals in Hle. unfold record_expr. 
  assert (H : In p (a_globals (fold_left (record_paths jg) (expr_paths e) st))).
  { apply Hle. apply record_path_global.
    rewrite (fold_left_keep (record_paths jg) a_scope (fun s q => record_path_scope jg q s)). exact Hs. }
  destruct jg; exact H.
Qed.

Lemma record_expr_records st e :
  incl (expr_paths e) (a_vars (record_expr false st e)) /\ incl (expr_filters e) (a_filters (record_expr false st e)).
Proof.
  unfold record_expr. simpl. split; [|apply incl_appr, incl_refl].
  intros p Hp. destruct (fold_le_at (record_paths false) (fun s q => record_path_le false q s) _ p st Hp) as (l1 & Hle).
  apply (le_vars _ _ Hle). apply record_path_var.
Qed.

Lemma record_tscope_le st x : le_st st (record_tscope st x).
Proof. exact (le_refl st). Qed.

(* pre_visit before it goes through the expressions of the node *)
Definition pre_head (jg : bool) (tn : str) (n : node) (st : astate) : astate :=
  let st := if negb jg && negb (is_empty tn) then set_seen (seen_add tn KMark (a_seen st)) st else st in
  if jg then st else match n_tag n with Some t => set_tags (a_tags st ++ [t]) st | None => st end.

Lemma pre_visit_eq jg tn n st :
  pre_visit jg tn n st = fold_left record_tscope (n_tscope n) (fold_left (record_expr jg) (n_exprs n) (pre_head jg tn n st)).
Proof. reflexivity. Qed.

Lemma pre_head_le jg tn n st : le_st st (pre_head jg tn n st).
Proof.
  unfold pre_head. set (st1 := if negb jg && _ then _ else st). apply le_trans with st1.
  - unfold st1. destruct (negb jg && _); [apply le_seen_add | apply le_refl].
  - destruct jg; [apply le_refl|]. destruct (n_tag n); [|apply le_refl].
    unfold le_st; simpl; repeat split; auto using incl_refl, incl_appl.
Qed.

Lemma pre_head_scope jg tn n st : a_scope (pre_head jg tn n st) = a_scope st.
Proof. unfold pre_head. destruct (negb jg && _), jg, (n_tag n); reflexivity. Qed.

Lemma pre_head_seen jg tn n st :
  a_seen (pre_head jg tn n st) = if negb jg && negb (is_empty tn) then seen_add tn KMark (a_seen st) else a_seen st.
Proof. unfold pre_head. destruct (negb jg && _), jg, (n_tag n); reflexivity. Qed.

Lemma pre_visit_le jg tn n st : le_st st (pre_visit jg tn n st).
Proof.
  rewrite pre_visit_eq.
  exact (le_trans _ _ _ (pre_head_le jg tn n st)
           (le_trans _ _ _ (fold_le _ (record_expr_le jg) _ _) (fold_le _ record_tscope_le _ _))).
Qed.

Lemma fold_tscope_scope l st :
  a_scope (fold_left record_tscope l st) =
  {| sc_frames := sc_frames (a_scope st); sc_base := sc_base (a_scope st) ++ l |}.
Proof.
  revert st. induction l as [|x l IH]; simpl; intro st.
  - rewrite app_nil_r. destruct (a_scope st); reflexivity.
  - rewrite IH. simpl. rewrite <- app_assoc. reflexivity.
Qed.

(* only record_tscope touches the scope *)
Lemma pre_visit_scope jg tn n st :
  a_scope (pre_visit jg tn n st) =
  {| sc_frames := sc_frames (a_scope st); sc_base := sc_base (a_scope st) ++ n_tscope n |}.
Proof.
  rewrite pre_visit_eq, fold_tscope_scope, (fold_left_keep _ a_scope (record_expr_scope jg)), pre_head_scope. reflexivity.
Qed.

Lemma pre_visit_flat jg tn n st S :
  incl (sc_flat (a_scope st)) S -> incl (sc_flat (a_scope (pre_visit jg tn n st))) (S ++ n_tscope n).
Proof.
  intro HS. rewrite pre_visit_scope. unfold sc_flat in *. simpl. rewrite app_assoc.
  apply incl_app_app; [exact HS | apply incl_refl].
Qed.

Lemma partial_no_tscope n x : n_partial n = Some x -> n_tscope n = [].
Proof. destruct n; simpl; intro H; try discriminate; reflexivity. Qed.

Lemma pre_visit_seen_eq jg tn n st :
  a_seen (pre_visit jg tn n st) = if negb jg && negb (is_empty tn) then seen_add tn KMark (a_seen st) else a_seen st.
Proof.
  rewrite pre_visit_eq, (fold_left_keep record_tscope a_seen (fun s x => eq_refl)),
    (fold_left_keep _ a_seen (record_expr_seen jg)). apply pre_head_seen.
Qed.

(* the scope the expressions of a node are analysed in is the scope on entry *)
Lemma pre_visit_globals jg tn n st e p :
  In e (n_exprs n) -> In p (expr_paths e) -> sc_mem (p_root p) (a_scope st) = false ->
  In p (a_globals (pre_visit jg tn n st)).
Proof.
  intros He Hp Hs. rewrite pre_visit_eq.
  apply (le_globals _ _ (fold_le _ record_tscope_le _ _)).
  destruct (fold_le_at _ (record_expr_le jg) _ e (pre_head jg tn n st) He) as (l1 & Hle).
  apply (le_globals _ _ Hle). apply record_expr_global; [exact Hp|].
  rewrite (fold_left_keep _ a_scope (record_expr_scope jg)), pre_head_scope. exact Hs.
Qed.

(* what a full visit records about the node itself *)
Lemma pre_visit_tag tn n st t : n_tag n = Some t -> In t (a_tags (pre_visit false tn n st)).
Proof.
  intro Ht. rewrite pre_visit_eq.
  apply (le_tags _ _ (fold_le _ record_tscope_le _ _)), (le_tags _ _ (fold_le _ (record_expr_le false) _ _)).
  unfold pre_head. rewrite Ht. apply in_elt.
Qed.

Lemma pre_visit_records tn n st e :
  In e (n_exprs n) ->
  incl (expr_paths e) (a_vars (pre_visit false tn n st)) /\ incl (expr_filters e) (a_filters (pre_visit false tn n st)).
Proof.
  intro He. rewrite pre_visit_eq.
  pose proof (fold_le _ record_tscope_le (n_tscope n) (fold_left (record_expr false) (n_exprs n) (pre_head false tn n st))) as Hle2.
  destruct (fold_le_at _ (record_expr_le false) _ e (pre_head false tn n st) He) as (l1 & Hle1).
  pose proof (le_trans _ _ _ Hle1 Hle2) as Hle. 
  destruct (record_expr_records (fold_left (record_expr false) l1 (pre_head false tn n st)) e) as [Hv Hf].
  split; eapply incl_tran; [exact Hv | exact (le_vars _ _ Hle) | exact Hf | exact (le_filters _ _ Hle)].
Qed.

Lemma sc_flat_push fr s : sc_flat (sc_push fr s) = fr ++ sc_flat s.
Proof. unfold sc_flat. simpl. symmetry. apply app_assoc. Qed.

(* ================================================================== Part 1: the walk *)
Section Walk.
Variable P : prog.

(* one step of visit, read backwards *)
Lemma visit_S f jg tn n st st' :
  visit P (S f) jg tn n st = Ok st' ->
  let st0 := pre_visit jg tn n st in
  match n_partial n with
  | Some (pname, iso, insc, key) =>
      let k := KPart key (if iso then insc else sc_flat (a_scope st0) ++ insc) in
      if skey_in k (seen_get pname (a_seen st0)) then st' = st0
      else exists body s1,
        alookup pname (pg_tpls P) = Some body /\
        seqM (visit P f (seen_dom pname (a_seen st0)) pname) body
          (set_scope (if iso then {| sc_frames := []; sc_base := insc |} else sc_push insc (a_scope st0))
             (set_seen (seen_add pname k (a_seen st0)) st0)) = Ok s1 /\
        st' = set_scope (if iso then a_scope st0 else sc_pop (a_scope s1)) s1
  | None =>
      exists s1, seqM (visit P f jg tn) (n_children n) (set_scope (sc_push (n_bscope n) (a_scope st0)) st0) = Ok s1 /\
                 st' = set_scope (sc_pop (a_scope s1)) s1
  end.
Proof.
  simpl. intro H. destruct (n_partial n) as [[[[pname iso] insc] key]|].
  - destruct (skey_in _ _); [inversion H; reflexivity|].
    destruct (alookup pname (pg_tpls P)) as [body|]; [|discriminate].
    apply bind_ok in H. destruct H as (s1 & E & H). inversion H. exists body, s1. auto.
  - apply bind_ok in H. destruct H as (s1 & E & H). inversion H. exists s1. auto.
Qed.

Lemma visit_le_pre f : forall jg tn n st st', visit P f jg tn n st = Ok st' -> le_st (pre_visit jg tn n st) st'.
Proof.
  induction f as [|f IH]; intros jg tn n st st' H; [discriminate|].
  assert (IHl : forall jg tn ns a b, seqM (visit P f jg tn) ns a = Ok b -> le_st a b).
  { intros jg0 tn0. apply (seqM_rel _ le_st le_refl le_trans). intros x a b E.
    exact (le_trans _ _ _ (pre_visit_le _ _ _ _) (IH _ _ _ _ _ E)). }
  apply visit_S in H. cbv zeta in H. destruct (n_partial n) as [[[[pname iso] insc] key]|].
  - destruct (skey_in _ _); [subst; apply le_refl|]. destruct H as (body & s1 & _ & E & ->).
    apply IHl in E. eapply le_trans; [apply le_seen_add|]. eapply le_trans; [apply le_set_scope | exact E].
  - destruct H as (s1 & E & ->). exact (IHl _ _ _ _ _ E).
Qed.

Lemma visit_le f jg tn n st st' : visit P f jg tn n st = Ok st' -> le_st st st'.
Proof. intro H. exact (le_trans _ _ _ (pre_visit_le _ _ _ _) (visit_le_pre _ _ _ _ _ _ H)). Qed.

Lemma seq_visit_le f jg tn ns st st' : seqM (visit P f jg tn) ns st = Ok st' -> le_st st st'.
Proof. apply (seqM_rel _ le_st le_refl le_trans), visit_le. Qed.

(* a completed visit of a node that is no partial has walked its children under the node's block scope *)
Lemma visit_children f jg tn n st st' :
  visit P f jg tn n st = Ok st' -> n_partial n = None ->
  exists f' s1,
    seqM (visit P f' jg tn) (n_children n)
      (set_scope (sc_push (n_bscope n) (a_scope (pre_visit jg tn n st))) (pre_visit jg tn n st)) = Ok s1 /\ le_st s1 st'.
Proof.
  destruct f as [|f]; [discriminate|]. intros H Hp. apply visit_S in H. rewrite Hp in H.
  destruct H as (s1 & E & ->). exists f, s1. split; [exact E | apply le_set_scope].
Qed.

(* a completed visit of a partial leaves its key, with the names visible at the tag, in the seen map *)
Lemma visit_key f jg tn n st st' pname iso insc key :
  visit P f jg tn n st = Ok st' -> n_partial n = Some (pname, iso, insc, key) ->
  exists k', In k' (seen_get pname (a_seen st')) /\
    skey_eqb (KPart key (if iso then insc else sc_flat (a_scope (pre_visit jg tn n st)) ++ insc)) k' = true.
Proof.
  destruct f as [|f]; [discriminate|]. intros H Hp. apply visit_S in H. rewrite Hp in H. cbv zeta in H.
  destruct (skey_in _ _) eqn:Hin; [subst st'; exact (skey_in_has _ _ Hin)|].
  destruct H as (body & s1 & _ & E & ->).
  destruct (seen_add_has pname (KPart key (if iso then insc else sc_flat (a_scope (pre_visit jg tn n st)) ++ insc))
              (a_seen (pre_visit jg tn n st))) as (k' & Hk & He).
  exists k'. split; [|exact He]. exact (le_seen _ _ (seq_visit_le _ _ _ _ _ _ E) _ _ Hk).
Qed.

(* ---- how the scope changes across a visit: the frames are restored, the base grows by names that the
        node assigns (partials with shared scope expanded) *)
Definition grows (st st' : astate) (names : list str -> Prop) : Prop :=
  sc_frames (a_scope st') = sc_frames (a_scope st) /\
  exists extra, sc_base (a_scope st') = sc_base (a_scope st) ++ extra /\ names extra.

Definition within_assigned (n : node) (extra : list str) : Prop :=
  forall f2 a, assigned P f2 n = Ok a -> incl extra a.
Definition within_assigned_list (ns : list node) (extra : list str) : Prop :=
  forall f2 a, flatM (assigned P f2) ns = Ok a -> incl extra a.

(* assigned follows partials the way visit does *)
Lemma assigned_S f n :
  assigned P (S f) n =
  do rest <- match n_partial n with
             | Some (p, false, _, _) =>
                 match alookup p (pg_tpls P) with Some body => flatM (assigned P f) body | None => Ok [] end
             | Some (_, true, _, _) => Ok []
             | None => flatM (assigned P f) (n_children n)
             end;
  Ok (n_tscope n ++ rest).
Proof. destruct n; reflexivity. Qed.

Lemma within_assigned_tscope n : within_assigned n (n_tscope n).
Proof.
  intros [|f] a H; [discriminate|]. simpl in H. apply bind_ok in H. destruct H as (r & _ & H). inversion H.
  apply incl_appl, incl_refl.
Qed.

Lemma within_assigned_rest n body x :
  match n_partial n with
  | Some (p, iso, _, _) => iso = false /\ alookup p (pg_tpls P) = Some body
  | None => n_children n = body
  end ->
  within_assigned_list body x -> within_assigned n (n_tscope n ++ x).
Proof.
  intros Hn W [|f] a H; [discriminate|]. rewrite assigned_S in H. apply bind_ok in H. destruct H as (r & Hr & H).
  inversion H. apply incl_app_app; [apply incl_refl|]. apply (W f).
  destruct (n_partial n) as [[[[p iso] insc] key]|]; [destruct Hn as [-> Hb]; rewrite Hb in Hr | subst body]; exact Hr.
Qed.

Lemma seq_grows (step : node -> astate -> res astate) :
  (forall n a b, step n a = Ok b -> grows a b (within_assigned n)) ->
  forall ns a b, seqM step ns a = Ok b -> grows a b (within_assigned_list ns).
Proof.
  intro Hstep. induction ns as [|m ns IH]; simpl; intros s s' Hs.
  - inversion Hs. split; [reflexivity|]. exists []. split; [symmetry; apply app_nil_r|].
    intros f2 a _. apply incl_nil_l.
  - apply bind_ok in Hs. destruct Hs as (s1 & E & Hs).
    destruct (Hstep _ _ _ E) as (F1 & x1 & B1 & W1). destruct (IH _ _ Hs) as (F2 & x2 & B2 & W2).
    split; [congruence|]. exists (x1 ++ x2). split; [rewrite B2, B1, app_assoc; reflexivity|].
    intros f2 a Ha. apply flatM_cons in Ha. destruct Ha as (a1 & a2 & E1 & E2 & ->).
    apply incl_app_app; [exact (W1 _ _ E1) | exact (W2 _ _ E2)].
Qed.

Lemma visit_scope f : forall jg tn n st st', visit P f jg tn n st = Ok st' -> grows st st' (within_assigned n).
Proof.
  induction f as [|f IH]; intros jg tn n st st' H; [discriminate|].
  pose proof (fun jg tn => seq_grows _ (IH jg tn)) as IHl.
  apply visit_S in H. cbv zeta in H. pose proof (pre_visit_scope jg tn n st) as Hpre.
  (* the scope after pre_visit, left as it is or put back: the node's own names *)
  assert (Hown : forall s1, grows st (set_scope (a_scope (pre_visit jg tn n st)) s1) (within_assigned n)).
  { intro s1. unfold grows. simpl. rewrite Hpre. split; [reflexivity|]. exists (n_tscope n).
    split; [reflexivity | apply within_assigned_tscope]. }
  (* a frame pushed before the walk of body and popped after it: the node's own names and what body assigns *)
  assert (Hblock : forall fr sn body s1,
            grows (set_scope (sc_push fr (a_scope (pre_visit jg tn n st))) sn) s1 (within_assigned_list body) ->
            match n_partial n with
            | Some (p, iso, _, _) => iso = false /\ alookup p (pg_tpls P) = Some body
            | None => n_children n = body
            end ->
            grows st (set_scope (sc_pop (a_scope s1)) s1) (within_assigned n)).
  { intros fr sn body s1 (F1 & x1 & B1 & W1) Hn. unfold grows. simpl in *. rewrite F1, B1, Hpre. simpl.
    split; [reflexivity|]. exists (n_tscope n ++ x1).
    split; [symmetry; apply app_assoc | exact (within_assigned_rest n body x1 Hn W1)]. }
  destruct (n_partial n) as [[[[pname iso] insc] key]|].
  - destruct (skey_in _ _); [subst st'; exact (Hown (pre_visit jg tn n st))|]. destruct H as (body & s1 & Hb & E & ->).
    destruct iso; [exact (Hown s1)|]. exact (Hblock _ _ _ _ (IHl _ _ _ _ _ E) (conj eq_refl Hb)).
  - destruct H as (s1 & E & ->). exact (Hblock _ _ _ _ (IHl _ _ _ _ _ E) eq_refl).
Qed.

Lemma grows_flat st st' names S :
  grows st st' names -> incl (sc_flat (a_scope st)) S ->
  exists extra, names extra /\ incl (sc_flat (a_scope st')) (S ++ extra).
Proof.
  intros (F & x & B & W) HS. exists x. split; [exact W|].
  unfold sc_flat in *. rewrite F, B, app_assoc. apply incl_app_app; [exact HS | apply incl_refl].
Qed.

End Walk.

(* ------------------------------------------------------------------ which templates have been walked *)
Section Closure.
Variable P : prog.

(* the nodes ns were walked (mode jg) from a state whose scope was within S, and what the walk recorded is in A *)
Definition walked (A : astate) (jg : bool) (ns : list node) (S : list str) : Prop :=
  exists f tn st1 st2, seqM (visit P f jg tn) ns st1 = Ok st2 /\ incl (sc_flat (a_scope st1)) S /\ le_st st2 A.
Definition fullwalk (A : astate) (ns : list node) : Prop := exists S, walked A false ns S.

Lemma walked_le A A' jg ns S : walked A jg ns S -> le_st A A' -> walked A' jg ns S.
Proof.
  intros (f & tn & s1 & s2 & H & HS & Hle) HA. exists f, tn, s1, s2.
  split; [exact H|]. split; [exact HS | eapply le_trans; eassumption].
Qed.
Lemma walked_incl A jg ns S S' : walked A jg ns S -> incl S S' -> walked A jg ns S'.
Proof.
  intros (f & tn & s1 & s2 & H & HS & Hle) HA. exists f, tn, s1, s2.
  split; [exact H|]. split; [eapply incl_tran; eassumption | exact Hle].
Qed.
Lemma fullwalk_le A A' ns : fullwalk A ns -> le_st A A' -> fullwalk A' ns.
Proof. intros (S & H) HA. exists S. eapply walked_le; eassumption. Qed.

(* by the time a visit returns, every partial it met for the first time has been walked in full, and every
   (partial, names in scope) pair it registered has been walked with a scope within those names *)
Definition newdom (tn : str) (st st' : astate) : Prop :=
  forall m, seen_dom m (a_seen st') = true ->
    seen_dom m (a_seen st) = true \/ m = tn \/ exists body, alookup m (pg_tpls P) = Some body /\ fullwalk st' body.
Definition newkeys (st st' : astate) : Prop :=
  forall m k vis, In (KPart k vis) (seen_get m (a_seen st')) ->
    In (KPart k vis) (seen_get m (a_seen st)) \/
    exists body, alookup m (pg_tpls P) = Some body /\ exists jg, walked st' jg body vis.

(* "post" in the names below: [newdom tn a b /\ newkeys a b] *)
Lemma post_refl tn a : newdom tn a a /\ newkeys a a.
Proof. split; [intros m Hm | intros m k vis Hm]; left; exact Hm. Qed.

Lemma post_trans tn a b c :
  le_st b c -> newdom tn a b /\ newkeys a b -> newdom tn b c /\ newkeys b c -> newdom tn a c /\ newkeys a c.
Proof.
  intros Hle [D1 K1] [D2 K2]. split.
  - intros m Hm. destruct (D2 m Hm) as [Hb|Hb]; [|right; exact Hb].
    destruct (D1 m Hb) as [Ha|[->|(body & Hb' & Hw)]]; [auto | auto |].
    right; right. exists body. split; [exact Hb' | exact (fullwalk_le _ _ _ Hw Hle)].
  - intros m k vis Hm. destruct (K2 m k vis Hm) as [Hb|Hb]; [|right; exact Hb].
    destruct (K1 m k vis Hb) as [Ha|(body & Hb' & jg & Hw)]; [auto|].
    right. exists body. split; [exact Hb'|]. exists jg. exact (walked_le _ _ _ _ _ Hw Hle).
Qed.

Lemma pre_visit_post jg tn n st : newdom tn st (pre_visit jg tn n st) /\ newkeys st (pre_visit jg tn n st).
Proof.
  unfold newdom, newkeys. rewrite pre_visit_seen_eq. destruct (negb jg && negb (is_empty tn)); [|split; auto].
  split.
  - intros m. rewrite seen_dom_add. intro H. apply orb_true_iff in H. destruct H as [H|H]; [auto|].
    right; left. apply str_eqb_eq. exact H.
  - intros m k vis H. apply seen_add_new in H. destruct H as [H|[_ H]]; [left; exact H | discriminate].
Qed.

Lemma seq_post f jg tn :
  (forall n a b, visit P f jg tn n a = Ok b -> newdom tn a b /\ newkeys a b) ->
  forall ns a b, seqM (visit P f jg tn) ns a = Ok b -> newdom tn a b /\ newkeys a b.
Proof.
  intro Hstep. induction ns as [|m ns IH]; simpl; intros a b H.
  - inversion H. apply post_refl.
  - apply bind_ok in H. destruct H as (s1 & E & H).
    exact (post_trans _ _ _ _ (seq_visit_le P _ _ _ _ _ _ H) (Hstep _ _ _ E) (IH _ _ H)).
Qed.

Lemma visit_post f : forall jg tn n st st',
  visit P f jg tn n st = Ok st' -> newdom tn st st' /\ newkeys st st'.
Proof.
  induction f as [|f IH]; intros jg tn n st st' H; [discriminate|].
  pose proof (fun jg tn => seq_post f jg tn (IH jg tn)) as IHl.
  apply (post_trans _ _ _ _ (visit_le_pre P _ _ _ _ _ _ H) (pre_visit_post jg tn n st)).
  apply visit_S in H. cbv zeta in H. set (st0 := pre_visit jg tn n st) in *.
  destruct (n_partial n) as [[[[pname iso] insc] key]|].
  - destruct (skey_in _ _); [subst st'; apply post_refl|].
    set (vis := if iso then insc else sc_flat (a_scope st0) ++ insc) in *.
    destruct H as (body & s1 & Hb & E & ->). destruct (IHl _ _ _ _ _ E) as [D K].
    set (stC := set_scope (if iso then a_scope st0 else sc_pop (a_scope s1)) s1).
    assert (Hwalk : walked stC (seen_dom pname (a_seen st0)) body vis).
    { eexists f, pname, _, s1. split; [exact E|]. split; [|apply le_set_scope].
      unfold vis. destruct iso; simpl; [apply incl_refl|].
      rewrite sc_flat_push. apply incl_app; [apply incl_appr | apply incl_appl]; apply incl_refl. }
    (* pname is new to the seen map only if this walk of its body was a full one *)
    assert (Hpn : seen_dom pname (a_seen st0) = true \/ fullwalk stC body).
    { destruct (seen_dom pname (a_seen st0)); [left; reflexivity | right; exists vis; exact Hwalk]. }
    split.
    + intros m Hm.
      assert (Hm' : seen_dom m (a_seen st0) = true \/ m = pname \/
                    exists body', alookup m (pg_tpls P) = Some body' /\ fullwalk stC body').
      { destruct (D m Hm) as [Hd|Hd]; [|right; exact Hd]. simpl in Hd. rewrite seen_dom_add in Hd.
        apply orb_true_iff in Hd. destruct Hd as [Hd|Hd]; [left; exact Hd | right; left; apply str_eqb_eq; exact Hd]. }
      destruct Hm' as [Hd|[->|Hw]]; [left; exact Hd | | right; right; exact Hw].
      destruct Hpn as [Hd|Hw]; [left; exact Hd | right; right; exists body; split; assumption].
    + intros m k vis0 Hm. destruct (K m k vis0 Hm) as [Hk|Hw]; [|right; exact Hw].
      simpl in Hk. apply seen_add_new in Hk. destruct Hk as [Hk|[-> Hk]]; [left; exact Hk|].
      inversion Hk. right. exists body. split; [exact Hb|]. eexists. exact Hwalk.
  - destruct H as (s1 & E & ->). exact (IHl _ _ _ _ _ E).
Qed.

(* what holds of the result of a completed analysis; closedA for instance A of Part 3, closedB for instance B *)
Definition closedA (A : astate) : Prop :=
  forall m, seen_dom m (a_seen A) = true -> exists body, alookup m (pg_tpls P) = Some body /\ fullwalk A body.
Definition closedB (A : astate) : Prop :=
  forall m k vis, In (KPart k vis) (seen_get m (a_seen A)) ->
    exists body, alookup m (pg_tpls P) = Some body /\ exists jg, walked A jg body vis.

Lemma analyze_closed fuel A :
  analyze P fuel = Ok A ->
  exists body, alookup (pg_root P) (pg_tpls P) = Some body /\
    walked A false body [] /\ closedA A /\ closedB A.
Proof.
  unfold analyze. destruct (alookup (pg_root P) (pg_tpls P)) as [body|] eqn:Hb; [|discriminate].
  intro H. exists body. split; [reflexivity|].
  assert (Hw : walked A false body []).
  { exists fuel, (pg_root P), a_init, A. split; [exact H|]. split; [apply incl_refl | apply le_refl]. }
  split; [exact Hw|].
  destruct (seq_post _ _ _ (visit_post _ _ _) _ _ _ H) as [D K].
  split.
  - intros m Hm. destruct (D m Hm) as [Hd|[->|Hd]]; [discriminate| |exact Hd].
    exists body. split; [exact Hb|]. exists []. exact Hw.
  - intros m k vis Hm. destruct (K m k vis Hm) as [[]|Hk]. exact Hk.
Qed.

End Closure.

(* ================================================================== Part 2: a generic simulation *)
Section Sim.
Variable P : prog.
Variable Q : event -> Prop.                       (* what every event of a trace must satisfy *)
Variable CovN : list str -> node -> Prop.         (* the node is covered when run with sigma *)
Variable CovL : list str -> list node -> Prop.    (* the list is covered when run from sigma *)

Definition okpaths (sg : list str) (ps : list path) : Prop :=
  forall p, In p ps -> forall g, Q (ERead p g (mem (p_root p) sg)).

Hypothesis H_tag : forall sg n t, CovN sg n -> n_tag n = Some t -> Q (ETag t).
Hypothesis H_exprs : forall sg n e, CovN sg n -> In e (n_exprs n) ->
  okpaths sg (expr_paths e) /\ (forall fn, In fn (expr_filters e) -> Q (EFilter fn)).
Hypothesis H_children : forall sg n, CovN sg n -> n_partial n = None ->
  CovL (sg ++ n_tscope n ++ n_bscope n) (n_children n).
Hypothesis H_partial : forall sg n pname iso insc key body,
  CovN sg n -> n_partial n = Some (pname, iso, insc, key) -> alookup pname (pg_tpls P) = Some body ->
  CovL (if iso then insc else sg ++ insc) body.
Hypothesis H_cons : forall sg n ns, CovL sg (n :: ns) ->
  CovN sg n /\ (forall f a, assigned P f n = Ok a -> CovL (sg ++ a) ns).

Lemma cov_app sg l1 l2 : CovL sg (l1 ++ l2) -> forall f a, flatM (assigned P f) l1 = Ok a -> CovL (sg ++ a) l2.
Proof.
  revert sg. induction l1 as [|n l1 IH]; intros sg H f a Ha.
  - inversion Ha. rewrite app_nil_r. exact H.
  - apply flatM_cons in Ha. destruct Ha as (a1 & a2 & E1 & E2 & ->). rewrite app_assoc.
    exact (IH _ (proj2 (H_cons _ _ _ H) _ _ E1) _ _ E2).
Qed.

(* every event so far is fine, and every macro defined so far is covered at the sigma of its tag *)
Definition inv (st : dstate) : Prop :=
  Forall Q (d_trace st) /\
  forall m mc, alookup m (d_macros st) = Some mc -> CovN (mc_sigma mc) (NMacro m (mc_params mc) (mc_body mc)).
(* st' is st with more events, all of them fine *)
Definition ext (st st' : dstate) : Prop :=
  d_macros st' = d_macros st /\ (Forall Q (d_trace st) -> Forall Q (d_trace st')).

Lemma ext_refl st : ext st st. Proof. split; auto. Qed.
Lemma ext_trans a b c : ext a b -> ext b c -> ext a c.
Proof. intros [M1 T1] [M2 T2]. split; [congruence | auto]. Qed.
Lemma ext_inv st st' : ext st st' -> inv st -> inv st'.
Proof. intros [M T] [I1 I2]. split; [auto | rewrite M; exact I2]. Qed.

(* an evaluation followed by one that starts from its result *)
Lemma ext_let {X Y} (m : X * dstate) (k : X -> dstate -> Y * dstate) st :
  ext st (snd m) -> (forall v s, ext s (snd (k v s))) -> ext st (snd (let '(v, s) := m in k v s)).
Proof. destruct m as [v s]. intros H1 H2. exact (ext_trans _ _ _ H1 (H2 v s)). Qed.

Lemma inv_let {X} (m : X * dstate) (k : X -> dstate -> dstate) :
  inv (snd m) -> (forall v s, inv s -> inv (k v s)) -> inv (let '(v, s) := m in k v s).
Proof. destruct m as [v s]. intros H1 H2. exact (H2 v s H1). Qed.

Lemma emit_ext e st : Q e -> ext st (emit e st).
Proof.
  intro He. unfold emit. destruct (d_status st); try apply ext_refl.
  split; simpl; [reflexivity | intro H; constructor; assumption].
Qed.

Lemma halt_ext st : ext st (halt st).
Proof. unfold halt. destruct (d_status st); split; auto. Qed.

Lemma okpaths_app sg a b : okpaths sg (a ++ b) -> okpaths sg a /\ okpaths sg b.
Proof. intro H. split; intros p Hp; apply H; apply in_or_app; auto. Qed.

(* nested paths: induction on the size of a path *)
Fixpoint psize (p : path) : nat :=
  match p with
  | Path _ segs =>
      S ((fix go (l : list seg) : nat :=
            match l with
            | [] => 0
            | SSub q :: l' => psize q + go l'
            | _ :: l' => go l'
            end) segs)
  end.
(* the local functions of psize, all_paths and eval_path, by name *)
Fixpoint segs_size (l : list seg) : nat :=
  match l with [] => 0 | SSub q :: l' => psize q + segs_size l' | _ :: l' => segs_size l' end.
Fixpoint segs_paths (l : list seg) : list path :=
  match l with [] => [] | SSub q :: l' => all_paths q ++ segs_paths l' | _ :: l' => segs_paths l' end.
Section Segs.
Variables (c : ctx) (sg : list str).
Fixpoint eval_segs (l : list seg) (st : dstate) : list value * dstate :=
  match l with
  | [] => ([], st)
  | s :: l' =>
      let '(k, sa) := match s with
                      | SKey x => (VStr x, st)
                      | SIdx i => (VInt i, st)
                      | SSub q => eval_path c sg q st
                      end in
      let '(ks, sb) := eval_segs l' sa in
      (k :: ks, sb)
  end.
End Segs.

Lemma psize_eq r segs : psize (Path r segs) = S (segs_size segs). Proof. reflexivity. Qed.
Lemma all_paths_eq r segs : all_paths (Path r segs) = Path r segs :: segs_paths segs. Proof. reflexivity. Qed.
Lemma eval_path_eq c sg r segs st :
  eval_path c sg (Path r segs) st =
  let '(ks, st1) := eval_segs c sg segs st in
  let '(v0, g) := lookup c st1 r in
  (fold_left get_key ks v0, emit (ERead (Path r segs) g (mem r sg)) st1).
Proof. reflexivity. Qed.

Lemma eval_path_ext c sg : forall n p, psize p <= n -> forall st,
  okpaths sg (all_paths p) -> ext st (snd (eval_path c sg p st)).
Proof.
  induction n as [|n IH]; intros [r segs] Hn st Hp; rewrite psize_eq in Hn; [lia|].
  rewrite all_paths_eq in Hp. rewrite eval_path_eq.
  assert (Hs : forall l st0, segs_size l <= n -> okpaths sg (segs_paths l) -> ext st0 (snd (eval_segs c sg l st0))).
  { induction l as [|s l IHl]; intros st0 Hl Hq; [apply ext_refl|].
    assert (H : segs_size l <= n /\ okpaths sg (segs_paths l) /\
                ext st0 (snd (match s with
                                   | SKey x => (VStr x, st0)
                                   | SIdx i => (VInt i, st0)
                                   | SSub q => eval_path c sg q st0
                                   end))).
    { destruct s as [x|i|q]; simpl in Hl, Hq; [auto using ext_refl.. |].
      apply okpaths_app in Hq. destruct Hq as [Hq1 Hq2].
      split; [lia|]. split; [exact Hq2 | apply IH; [lia | exact Hq1]]. }
    destruct H as (Hl' & Hq' & E). simpl eval_segs.
    apply ext_let; [exact E | intros k sa]. apply ext_let; [exact (IHl sa Hl' Hq') | intros; apply ext_refl]. }
  apply ext_let; [apply Hs; [lia | intros q Hq; apply Hp; right; exact Hq] | intros ks st1].
  destruct (lookup c st1 r) as [v0 g]. apply emit_ext. apply (Hp (Path r segs)). left; reflexivity.
Qed.

Lemma eval_atom_ext c sg a st : okpaths sg (atom_paths a) -> ext st (snd (eval_atom c sg a st)).
Proof.
  destruct a as [v|p]; simpl; intro H; [apply ext_refl|].
  apply (eval_path_ext c sg (psize p) p (le_n _) st H).
Qed.

Lemma eval_atoms_ext c sg l : forall st, okpaths sg (flat_map atom_paths l) -> ext st (snd (eval_atoms c sg l st)).
Proof.
  induction l as [|a l IH]; simpl; intros st H; [apply ext_refl|].
  apply okpaths_app in H. destruct H as [Ha Hl].
  apply ext_let; [exact (eval_atom_ext c sg a st Ha) | intros v s].
  apply ext_let; [exact (IH s Hl) | intros; apply ext_refl].
Qed.

Lemma eval_filters_ext c sg fs : forall st,
  okpaths sg (flat_map (fun f => flat_map atom_paths (f_args f)) fs) ->
  (forall fn, In fn (map f_name fs) -> Q (EFilter fn)) -> ext st (eval_filters c sg fs st).
Proof.
  induction fs as [|f fs IH]; simpl; intros st Hp Hf; [apply ext_refl|].
  apply okpaths_app in Hp. destruct Hp as [Ha Hl].
  pose proof (eval_atoms_ext c sg (f_args f) st Ha) as E1. destruct (eval_atoms c sg (f_args f) st) as [vs st1].
  apply (ext_trans _ _ _ E1). apply (ext_trans _ _ _ (emit_ext _ st1 (Hf _ (or_introl eq_refl)))).
  apply IH; [exact Hl | intros fn Hfn; apply Hf; right; exact Hfn].
Qed.

Lemma eval_expr_ext c sg e st :
  okpaths sg (expr_paths e) -> (forall fn, In fn (expr_filters e) -> Q (EFilter fn)) ->
  ext st (snd (eval_expr c sg e st)).
Proof.
  unfold eval_expr, expr_paths, expr_filters. intros Hp Hf. apply okpaths_app in Hp. destruct Hp as [Ha Hl].
  pose proof (eval_atom_ext c sg (e_left e) st Ha) as E1. destruct (eval_atom c sg (e_left e) st) as [v st1].
  destruct (e_filters e) as [|f fs]; [exact E1|].
  apply (ext_trans _ _ _ E1). apply (eval_filters_ext c sg (f :: fs)); assumption.
Qed.

Lemma eval_cond_ext c sg cd : forall st,
  okpaths sg (flat_map atom_paths (cond_atoms cd)) -> ext st (snd (eval_cond c sg cd st)).
Proof.
  induction cd as [a|a b|x IHx y IHy|x IHx y IHy]; simpl; intros st H;
    [rewrite app_nil_r in H | rewrite app_nil_r in H | rewrite flat_map_app in H..];
    try (apply okpaths_app in H; destruct H as [Ha Hb]).
  - apply ext_let; [exact (eval_atom_ext c sg a st H) | intros; apply ext_refl].
  - apply ext_let; [exact (eval_atom_ext c sg a st Ha) | intros v s].
    apply ext_let; [exact (eval_atom_ext c sg b s Hb) | intros; apply ext_refl].
  - apply ext_let; [exact (IHx st Ha) | intros [|] s; [apply IHy; exact Hb | apply ext_refl]].
  - apply ext_let; [exact (IHx st Ha) | intros [|] s; [apply ext_refl | apply IHy; exact Hb]].
Qed.

Lemma eval_binds_ext c sg b : forall acc st,
  okpaths sg (flat_map (fun kv => atom_paths (snd kv)) b) -> ext st (snd (eval_binds c sg b acc st)).
Proof.
  induction b as [|[k a] b IH]; simpl; intros acc st H; [apply ext_refl|].
  apply okpaths_app in H. destruct H as [Ha Hb].
  apply ext_let; [exact (eval_atom_ext c sg a st Ha) | intros v s; apply IH; exact Hb].
Qed.

Lemma okpaths_plain sg a : okpaths sg (expr_paths (plain a)) -> okpaths sg (atom_paths a).
Proof. intro H. exact (proj1 (okpaths_app sg (atom_paths a) [] H)). Qed.

Lemma eval_iter_ext c sg it st :
  (forall e, In e (iter_exprs it) -> okpaths sg (expr_paths e)) -> ext st (snd (eval_iter c sg it st)).
Proof.
  destruct it as [p|a b]; intro H; unfold eval_iter.
  - apply ext_let; [|intros; apply ext_refl].
    apply eval_atom_ext, okpaths_plain, H. left; reflexivity.
  - apply ext_let; [apply eval_atom_ext, okpaths_plain, H; left; reflexivity | intros va s].
    apply ext_let; [|intros; apply ext_refl].
    apply eval_atom_ext, okpaths_plain, H. right; left; reflexivity.
Qed.

Lemma eval_loop_ext c sg x it la st :
  (forall e, In e (iter_exprs it) -> okpaths sg (expr_paths e)) ->
  okpaths sg (flat_map atom_paths (la_atoms la)) ->
  ext st (snd (eval_loop c sg x it la st)).
Proof.
  intros Hit Hla. unfold la_atoms in Hla. rewrite !flat_map_app in Hla.
  apply okpaths_app in Hla. destruct Hla as [Hlim Hrest]. apply okpaths_app in Hrest. destruct Hrest as [Hoff _].
  unfold eval_loop. apply ext_let; [exact (eval_iter_ext c sg it st Hit) | intros items st1].
  apply ext_let.
  { destruct (la_limit la) as [a|]; [|apply ext_refl]. simpl in Hlim. rewrite app_nil_r in Hlim.
    apply ext_let; [exact (eval_atom_ext c sg a st1 Hlim) | intros; apply ext_refl]. }
  intros [lim|] st2; [|apply halt_ext].
  apply ext_let.
  { destruct (la_offset la) as [[a|]|]; try apply ext_refl. simpl in Hoff. rewrite app_nil_r in Hoff.
    apply ext_let; [exact (eval_atom_ext c sg a st2 Hoff) | intros; apply ext_refl]. }
  intros [start|] st3; [split; auto | apply halt_ext].
Qed.

Lemma eval_params_ext c sg sgd (b : list (str * option (bool * atom))) : forall acc st,
  (forall k (isdef : bool) a, In (k, Some (isdef, a)) b -> okpaths (if isdef then sgd else sg) (atom_paths a)) ->
  ext st (snd (eval_params c sg sgd b acc st)).
Proof.
  induction b as [|[k [[isdef a]|]] b IH]; simpl; intros acc st H; [apply ext_refl| |].
  - apply ext_let; [exact (eval_atom_ext c _ a st (H k isdef a (or_introl eq_refl))) | intros v s].
    apply IH. intros k' i' a' Hin. exact (H k' i' a' (or_intror Hin)).
  - apply IH. intros k' i' a' Hin. exact (H k' i' a' (or_intror Hin)).
Qed.

Lemma find_last_In {V} k (kws : list (str * V)) w : find_last k kws = Some w -> In w (map snd kws).
Proof.
  induction kws as [|[k' v] kws IH]; simpl; [discriminate|].
  destruct (find_last k kws) as [w'|]; [intro E; right; apply IH; exact E|].
  destruct (str_eqb k k'); [intro E; inversion E; left; reflexivity | discriminate].
Qed.

(* where the expressions bound by a call come from *)
Lemma bind_params_src ps : forall pos kws bound excess,
  bind_params ps pos kws = (bound, excess) ->
  incl excess pos /\
  forall k (isdef : bool) a, In (k, Some (isdef, a)) bound ->
    if isdef then In (k, Some a) ps else In a pos \/ In a (map snd kws).
Proof.
  induction ps as [|[x d] ps IH]; simpl; intros pos kws bound excess H.
  - inversion H. split; [apply incl_refl | intros k i a []].
  - (* what the first parameter gets, before the keyword arguments are looked at, and what is left *)
    set (hp := match pos with a :: r => (Some (false, a), r) | [] => (match d with Some a => Some (true, a) | None => None end, []) end) in H.
    assert (Hhp : incl (snd hp) pos /\
                  forall (isdef : bool) a, fst hp = Some (isdef, a) -> if isdef then d = Some a else In a pos).
    { destruct pos as [|a0 r]; simpl; (split; [auto using incl_refl, incl_tl|]); intros isdef a E.
      - destruct d; inversion E. reflexivity.
      - inversion E. left; reflexivity. }
    destruct hp as [here pos']. simpl in Hhp. destruct Hhp as [Hpos' Hhere].
    destruct (bind_params ps pos' kws) as [rest ex] eqn:E. inversion H; subst bound excess. clear H.
    destruct (IH _ _ _ _ E) as [Hex Hb]. split; [exact (incl_tran Hex Hpos')|].
    intros k isdef a [Hin|Hin].
    + inversion Hin; subst k. destruct (find_last x kws) as [w|] eqn:Ef.
      * inversion H1; subst. right. exact (find_last_In _ _ _ Ef).
      * specialize (Hhere _ _ H1). destruct isdef; [left; rewrite Hhere; reflexivity | left; exact Hhere].
    + specialize (Hb k isdef a Hin). destruct isdef; [right; exact Hb|].
      destruct Hb as [Hb|Hb]; [left; exact (Hpos' _ Hb) | right; exact Hb].
Qed.

Lemma iter_inv {X} (run : X -> dstate -> dstate) items :
  (forall x st, inv st -> inv (run x st)) -> forall st, inv st -> inv (iter run items st).
Proof. intro Hr. induction items as [|x r IH]; simpl; intros st H; [exact H | apply IH, Hr, H]. Qed.

Lemma inv_assign x v st : inv st -> inv (assign x v st).
Proof. exact (fun H => H). Qed.
Lemma inv_halt st : inv st -> inv (halt st).
Proof. exact (ext_inv _ _ (halt_ext st)). Qed.
Lemma inv_exhaust st : inv st -> inv (exhaust st).
Proof. intros [A B]. unfold exhaust. destruct (d_status st); split; assumption. Qed.
Lemma inv_fresh st : inv st -> inv (d_fresh st).
Proof. intros [A B]. split; [exact A | intros m mc H; discriminate]. Qed.
Lemma inv_call st : inv st -> inv (d_call st).
Proof. exact (fun H => H). Qed.
Lemma inv_restore saved st : inv saved -> inv st -> inv (d_restore saved st).
Proof. intros [A B] [C D]. split; assumption. Qed.

(* the atoms among the expressions of a covered node are fine at its sigma *)
Lemma plain_ok sg n a : CovN sg n -> In (plain a) (n_exprs n) -> okpaths sg (atom_paths a).
Proof. intros Hc Hin. exact (okpaths_plain sg a (proj1 (H_exprs _ _ _ Hc Hin))). Qed.

Lemma plain_list_ok sg n (l : list atom) :
  CovN sg n -> (forall a, In a l -> In (plain a) (n_exprs n)) -> okpaths sg (flat_map atom_paths l).
Proof.
  intros Hc Hl p Hp g. apply in_flat_map in Hp. destruct Hp as (a & Ha & Hpa).
  exact (plain_ok sg n a Hc (Hl a Ha) p Hpa g).
Qed.

Lemma iter_exprs_ok sg n it :
  CovN sg n -> (forall e, In e (iter_exprs it) -> In e (n_exprs n)) ->
  forall e, In e (iter_exprs it) -> okpaths sg (expr_paths e).
Proof. intros Hc Hin e He. exact (proj1 (H_exprs _ _ e Hc (Hin e He))). Qed.

(* evaluating expressions of a covered node keeps the invariant *)
Lemma expr_inv c sg n e st : CovN sg n -> In e (n_exprs n) -> inv st -> inv (snd (eval_expr c sg e st)).
Proof.
  intros Hc He. destruct (H_exprs _ _ e Hc He) as [Hp Hf]. exact (ext_inv _ _ (eval_expr_ext c sg e st Hp Hf)).
Qed.

Lemma atom_inv c sg n a st : CovN sg n -> In (plain a) (n_exprs n) -> inv st -> inv (snd (eval_atom c sg a st)).
Proof. intros Hc Ha. exact (ext_inv _ _ (eval_atom_ext c sg a st (plain_ok sg n a Hc Ha))). Qed.

Lemma atoms_inv c sg n l st :
  CovN sg n -> (forall a, In a l -> In (plain a) (n_exprs n)) -> inv st -> inv (snd (eval_atoms c sg l st)).
Proof. intros Hc Hl. exact (ext_inv _ _ (eval_atoms_ext c sg l st (plain_list_ok sg n l Hc Hl))). Qed.

Lemma cond_inv c sg n cd st :
  CovN sg n -> (forall a, In a (cond_atoms cd) -> In (plain a) (n_exprs n)) -> inv st ->
  inv (snd (eval_cond c sg cd st)).
Proof. intros Hc Hl. exact (ext_inv _ _ (eval_cond_ext c sg cd st (plain_list_ok sg n _ Hc Hl))). Qed.

Lemma binds_inv c sg n b acc st :
  CovN sg n -> (forall kv, In kv b -> In (plain (snd kv)) (n_exprs n)) -> inv st ->
  inv (snd (eval_binds c sg b acc st)).
Proof.
  intros Hc Hl. apply ext_inv, eval_binds_ext. intros p Hp g. apply in_flat_map in Hp. destruct Hp as (kv & Ha & Hpa).
  exact (plain_ok sg n (snd kv) Hc (Hl kv Ha) p Hpa g).
Qed.

Lemma loop_inv c sg n x it la st :
  CovN sg n -> (forall e, In e (iter_exprs it ++ map plain (la_atoms la)) -> In e (n_exprs n)) -> inv st ->
  inv (snd (eval_loop c sg x it la st)).
Proof.
  intros Hc Hl. apply ext_inv, eval_loop_ext.
  - apply (iter_exprs_ok sg n it Hc). intros e He. apply Hl, in_or_app. left. exact He.
  - apply (plain_list_ok sg n _ Hc). intros a Ha. apply Hl, in_or_app. right. apply in_map. exact Ha.
Qed.

(* a node that is no partial and binds no name: its children run at the node's own sigma *)
Lemma cov_children_nil sg n b :
  CovN sg n -> n_partial n = None -> n_tscope n = [] -> n_bscope n = [] -> n_children n = b -> CovL sg b.
Proof.
  intros Hc Hp Ht Hb Hch. pose proof (H_children _ _ Hc Hp) as H. rewrite Ht, Hb, Hch in H. simpl in H.
  rewrite app_nil_r in H. exact H.
Qed.

Section Step.
Variable f : nat.
Hypothesis IH : forall c sg n st, CovN sg n -> inv st -> inv (exec P f c sg n st).

(* l ++ rest: a for body is covered only as the front of body ++ els, an if branch as the front of the children *)
Lemma sim_list_from c : forall l rest sg st, CovL sg (l ++ rest) -> inv st -> inv (run_nodes (exec P f c) (assigned P f) sg l st).
Proof.
  induction l as [|n l IHl]; simpl; intros rest sg st Hc Hi; [exact Hi|].
  destruct (H_cons _ _ _ Hc) as [Hn Hrest].
  pose proof (IH c sg n st Hn Hi) as Hi1.
  destruct (assigned P f n) as [a| |] eqn:Ea; [|apply inv_exhaust; exact Hi1..].
  exact (IHl _ _ _ (Hrest _ _ Ea) Hi1).
Qed.

Lemma sim_list c l sg st : CovL sg l -> inv st -> inv (run_nodes (exec P f c) (assigned P f) sg l st).
Proof. intro Hc. apply (sim_list_from c l []). rewrite app_nil_r. exact Hc. Qed.

Lemma run_alts_inv c : forall alts sg els st,
  CovL sg (map (fun cb => NElsif (fst cb) (snd cb)) alts ++ els) -> inv st ->
  inv (run_alts (run_nodes (exec P f c) (assigned P f)) (eval_cond c) (flatM (assigned P f)) sg alts els st).
Proof.
  induction alts as [|[cd b] r IHa]; simpl; intros sg els st Hc Hi; [exact (sim_list c els sg st Hc Hi)|].
  destruct (H_cons _ _ _ Hc) as [Hn Hrest].
  apply inv_let; [exact (cond_inv c sg _ cd st Hn (in_map plain _) Hi) | intros [|] st1 Hi1].
  - apply sim_list; [|exact Hi1]. exact (cov_children_nil sg _ b Hn eq_refl eq_refl eq_refl eq_refl).
  - destruct (flatM (assigned P f) b) as [a| |] eqn:Ea; [|apply inv_exhaust; exact Hi1..].
    apply IHa; [|exact Hi1]. apply (Hrest (S f)). simpl. rewrite Ea. reflexivity.
Qed.

Lemma run_whens_inv c sg0 subj (Hsubj : okpaths sg0 (atom_paths subj)) : forall whens sg els matched st,
  CovL sg (map (fun ab => NWhen subj (fst ab) (snd ab)) whens ++ els) -> inv st ->
  inv (run_whens (run_nodes (exec P f c) (assigned P f)) (eval_atom c sg0 subj) (eval_atoms c) (flatM (assigned P f)) sg whens els matched st).
Proof.
  induction whens as [|[atoms b] r IHw]; simpl; intros sg els matched st Hc Hi.
  - destruct matched; [exact Hi | exact (sim_list c els sg st Hc Hi)].
  - destruct (H_cons _ _ _ Hc) as [Hn Hrest].
    apply inv_let; [exact (ext_inv _ _ (eval_atom_ext c sg0 subj st Hsubj) Hi) | intros v st1 Hi1].
    apply inv_let; [exact (atoms_inv c sg _ atoms st1 Hn (in_map plain _) Hi1) | intros ws st2 Hi2].
    assert (Hb : CovL sg b) by exact (cov_children_nil sg _ b Hn eq_refl eq_refl eq_refl eq_refl).
    assert (Hi3 : inv (iter (fun (_ : unit) s => run_nodes (exec P f c) (assigned P f) sg b s) (repeat tt (length (filter (veq v) ws))) st2)).
    { apply iter_inv; [|exact Hi2]. intros x s Hs. apply sim_list; assumption. }
    destruct (flatM (assigned P f) b) as [a| |] eqn:Ea; [|apply inv_exhaust; exact Hi3..].
    apply IHw; [|exact Hi3]. apply (Hrest (S f)). simpl. rewrite Ea. reflexivity.
Qed.
End Step.

Local Arguments eval_atom : simpl never.
Local Arguments eval_atoms : simpl never.
Local Arguments eval_expr : simpl never.
Local Arguments eval_cond : simpl never.
Local Arguments eval_binds : simpl never.
Local Arguments eval_params : simpl never.
Local Arguments eval_loop : simpl never.
Local Arguments bind_params : simpl never.
Local Arguments iter : simpl never.
Local Arguments to_iter : simpl never.

(* the values of the keyword arguments come last among the expressions of call, include and render *)
Lemma in_kwargs_exprs (pre : list expr) (kws : list (str * atom)) kv :
  In kv kws -> In (plain (snd kv)) (pre ++ map (fun kv => plain (snd kv)) kws).
Proof. intro H. apply in_or_app. right. exact (in_map (fun kv => plain (snd kv)) _ _ H). Qed.

(* each of limit, offset, cols that is an expression is among the atoms of the loop, whichever of the others are present *)
Lemma la_atoms_In la a :
  la_limit la = Some a \/ la_offset la = Some (OffAtom a) \/ la_cols la = Some a -> In a (la_atoms la).
Proof.
  unfold la_atoms. intros [H|[H|H]]; rewrite H.
  - apply in_or_app; left; left; reflexivity.
  - apply in_or_app; right; apply in_or_app; left; left; reflexivity.
  - apply in_or_app; right; apply in_or_app; right; left; reflexivity.
Qed.

Lemma sim_node : forall fuel c sg n st, CovN sg n -> inv st -> inv (exec P fuel c sg n st).
Proof.
  induction fuel as [|f IH]; intros c sg n st Hc Hi.
  - simpl. destruct (d_status st); [apply inv_exhaust| |]; exact Hi.
  - pose proof (sim_list f IH) as IHl.
    simpl. destruct (d_status st) eqn:Hst; [|exact Hi..].
    assert (Hi0 : inv (match n_tag n with Some t => emit (ETag t) st | None => st end)).
    { destruct (n_tag n) as [t|] eqn:Ht; [|exact Hi]. exact (ext_inv _ _ (emit_ext _ st (H_tag _ _ _ Hc Ht)) Hi). }
    set (st0 := match n_tag n with Some t => emit (ETag t) st | None => st end) in *.
    clearbody st0. clear Hi Hst st.
    (* the bodies of the node, at the sigma they run with *)
    assert (Hch := H_children sg n Hc). assert (Hpa := H_partial sg n).
    destruct n; simpl in Hch; try specialize (Hch eq_refl).
    + (* text *) exact Hi0.
    + (* output *) exact (expr_inv c sg _ e st0 Hc (or_introl eq_refl) Hi0).
    + (* echo *) exact (expr_inv c sg _ e st0 Hc (or_introl eq_refl) Hi0).
    + (* assign *)
      apply inv_let; [exact (expr_inv c sg _ e st0 Hc (or_introl eq_refl) Hi0) | intros v st1; apply inv_assign].
    + (* capture *) exact (IHl c _ _ _ Hch Hi0).
    + (* for *)
      apply inv_let; [exact (loop_inv c sg _ x it la st0 Hc (fun e He => He) Hi0) | intros [|v0 items] st1 Hi1].
      * destruct (flatM (assigned P f) body) as [a| |] eqn:Ea; [|apply inv_exhaust; exact Hi1..].
        exact (IHl c _ _ _ (cov_app _ _ _ Hch _ _ Ea) Hi1).
      * apply iter_inv; [|exact Hi1]. intros item s Hs. exact (sim_list_from f IH _ _ _ _ _ Hch Hs).
    + (* tablerow *)
      apply inv_let; [exact (loop_inv c sg _ x it la st0 Hc (fun e He => He) Hi0) | intros its st1 Hi1].
      apply iter_inv; [intros item s Hs; exact (IHl _ _ _ _ Hch Hs)|].
      destruct (la_cols la) as [a|] eqn:Hcols; [|exact Hi1]. apply (atom_inv c sg _ a st1 Hc); [|exact Hi1].
      simpl. apply in_or_app. right. apply in_map, la_atoms_In. right; right; exact Hcols.
    + (* if / unless *)
      apply inv_let; [exact (cond_inv c sg _ c0 st0 Hc (in_map plain _) Hi0) | intros b st1 Hi1].
      destruct (xorb neg b); [exact (sim_list_from f IH _ _ _ _ _ Hch Hi1)|].
      destruct (flatM (assigned P f) thn) as [a| |] eqn:Ea; [|apply inv_exhaust; exact Hi1..].
      exact (run_alts_inv f IH c _ _ _ _ (cov_app _ _ _ Hch _ _ Ea) Hi1).
    + (* elsif, on its own *)
      apply inv_let; [exact (cond_inv c sg _ c0 st0 Hc (in_map plain _) Hi0) | intros [|] st1 Hi1; [|exact Hi1]].
      exact (IHl c _ _ _ Hch Hi1).
    + (* case *)
      exact (run_whens_inv f IH c sg subj (plain_ok _ _ subj Hc (or_introl eq_refl)) _ _ _ _ _ Hch Hi0).
    + (* when, on its own: not a template; the interpreter does nothing *)
      exact Hi0.
    + (* cycle *) exact (atoms_inv c sg _ _ st0 Hc (in_map plain _) Hi0).
    + (* liquid *) exact (IHl c _ _ _ Hch Hi0).
    + (* with *)
      apply inv_let; [exact (binds_inv c sg _ binds [] st0 Hc (in_map (fun kv => plain (snd kv)) _) Hi0) | intros ns st1 Hi1].
      exact (IHl _ _ _ _ Hch Hi1).
    + (* macro *)
      destruct Hi0 as [T M]. split; [exact T|]. intros m' mc. simpl.
      destruct (str_eqb_spec m' m) as [->|Hne]; [|apply M].
      intro H. inversion H; subst. exact Hc.
    + (* call *)
      destruct (alookup m (d_macros st0)) as [mc|] eqn:Hm; [|exact Hi0].
      pose proof (proj2 Hi0 _ _ Hm) as Hmc.
      destruct (bind_params (mc_params mc) pos kws) as [bound excess] eqn:Hb.
      destruct (bind_params_src _ _ _ _ _ Hb) as [Hex Hsrc].
      assert (Hpos : forall a, In a pos -> In (plain a) (n_exprs (NCall m pos kws))).
      { intros a Ha. simpl. apply in_or_app. left. apply in_map. exact Ha. }
      pose proof (in_kwargs_exprs (map plain pos) kws) as Hkws.
      apply inv_let; [exact (atoms_inv c sg _ excess st0 Hc (fun a Ha => Hpos a (Hex a Ha)) Hi0) | intros xs st1 Hi1].
      apply inv_let; [|intros kvs st2 Hi2].
      { apply (binds_inv c sg _ _ [] st1 Hc); [|exact Hi1]. intros kv Hkv. apply filter_In in Hkv. apply Hkws, Hkv. }
      apply inv_let; [|intros ns st3 Hi3].
      { apply (ext_inv st2); [|exact Hi2]. apply eval_params_ext. intros k isdef a Hin.
        specialize (Hsrc k isdef a Hin). destruct isdef.
        - apply (plain_ok _ _ a Hmc). simpl. apply in_flat_map. exists (k, Some a). split; [exact Hsrc | left; reflexivity].
        - apply (plain_ok _ _ a Hc). destruct Hsrc as [Hs|Hs]; [apply Hpos, Hs|].
          apply in_map_iff in Hs. destruct Hs as (kv & <- & Hkv). apply Hkws, Hkv. }
      apply inv_restore; [exact Hi3|]. exact (IHl _ _ _ _ (H_children _ _ Hmc eq_refl) (inv_call _ Hi3)).
    + (* include *)
      destruct (c_noinc c); [apply inv_halt; exact Hi0|].
      destruct (alookup p (pg_tpls P)) as [body|] eqn:Hb; [|apply inv_halt; exact Hi0].
      specialize (Hpa _ _ _ _ _ Hc eq_refl Hb).
      apply inv_let; [exact (binds_inv c sg _ args [] st0 Hc (in_kwargs_exprs _ args) Hi0) | intros ns st1 Hi1].
      destruct bind as [[vp al]|]; [|exact (IHl _ _ _ _ Hpa Hi1)].
      apply inv_let; [exact (atom_inv _ sg _ (AVar vp) st1 Hc (or_introl eq_refl) Hi1) | intros v st2 Hi2].
      destruct v; try exact (IHl _ _ _ _ Hpa Hi2).
      apply iter_inv; [|exact Hi2]. intros item s Hs. exact (IHl _ _ _ _ Hpa Hs).
    + (* render *)
      destruct (alookup p (pg_tpls P)) as [body|] eqn:Hb; [|apply inv_halt; exact Hi0].
      specialize (Hpa _ _ _ _ _ Hc eq_refl Hb).
      apply inv_let; [exact (binds_inv c sg _ args [] st0 Hc (in_kwargs_exprs _ args) Hi0) | intros ns st1 Hi1].
      destruct bind as [[[isfor vp] al]|];
        [|exact (inv_restore _ _ Hi1 (IHl _ _ _ _ Hpa (inv_fresh _ Hi1)))].
      apply inv_let; [exact (atom_inv c sg _ (AVar vp) st1 Hc (or_introl eq_refl) Hi1) | intros v st2 Hi2].
      destruct isfor, v; apply (inv_restore _ _ Hi2); try exact (IHl _ _ _ _ Hpa (inv_fresh _ Hi2)).
      apply iter_inv; [|exact (inv_fresh _ Hi2)]. intros item s Hs. exact (IHl _ _ _ _ Hpa (inv_fresh _ Hs)).
    + (* increment *) exact Hi0.
    + (* decrement *) exact Hi0.
Qed.

Lemma sim_nodes fuel c sg ns st : CovL sg ns -> inv st -> inv (exec_nodes P fuel c sg ns st).
Proof. exact (sim_list fuel (sim_node fuel) c ns sg st). Qed.

End Sim.

(* ================================================================== Part 3: the two instances *)
Section Instances.
Variable P : prog.

(* ------------------------------------------------ A: variables, filters, tags *)
Section InstA.
Variable A : astate.
Hypothesis HclA : closedA P A.

Definition QA (e : event) : Prop :=
  match e with
  | ERead p _ _ => In p (a_vars A)
  | EFilter f => In f (a_filters A)
  | ETag t => In t (a_tags A)
  end.
(* sigma plays no part here: a full visit records every path, whatever is bound *)
Definition CovNA (sg : list str) (n : node) : Prop :=
  exists f tn st1 st2, visit P f false tn n st1 = Ok st2 /\ le_st st2 A.
Definition CovLA (sg : list str) (ns : list node) : Prop := fullwalk P A ns.

(* what pre_visit recorded is still there in A *)
Lemma CovNA_pre sg n : CovNA sg n -> exists tn st1, le_st (pre_visit false tn n st1) A.
Proof.
  intros (f & tn & s1 & s2 & Hv & Hle). exists tn, s1. exact (le_trans _ _ _ (visit_le_pre P _ _ _ _ _ _ Hv) Hle).
Qed.

Lemma A_tag sg n t : CovNA sg n -> n_tag n = Some t -> QA (ETag t).
Proof. intros Hc Ht. destruct (CovNA_pre sg n Hc) as (tn & s1 & Hle). exact (le_tags _ _ Hle _ (pre_visit_tag tn n s1 t Ht)). Qed.

Lemma A_exprs sg n e : CovNA sg n -> In e (n_exprs n) ->
  okpaths QA sg (expr_paths e) /\ (forall fn, In fn (expr_filters e) -> QA (EFilter fn)).
Proof.
  intros Hc He. destruct (CovNA_pre sg n Hc) as (tn & s1 & Hle). destruct (pre_visit_records tn n s1 e He) as [Hp Hf].
  split; [intros p Hin g; exact (le_vars _ _ Hle _ (Hp _ Hin)) | intros fn Hin; exact (le_filters _ _ Hle _ (Hf _ Hin))].
Qed.

Lemma A_children sg n : CovNA sg n -> n_partial n = None -> CovLA (sg ++ n_tscope n ++ n_bscope n) (n_children n).
Proof.
  intros (f & tn & s1 & s2 & Hv & Hle) Hp. destruct (visit_children P _ _ _ _ _ _ Hv Hp) as (f' & s3 & Hs & Hle3).
  eexists. exists f', tn. eexists. exists s3.
  split; [exact Hs|]. split; [apply incl_refl | eapply le_trans; eassumption].
Qed.

Lemma A_partial sg n pname iso insc key body :
  CovNA sg n -> n_partial n = Some (pname, iso, insc, key) -> alookup pname (pg_tpls P) = Some body ->
  CovLA (if iso then insc else sg ++ insc) body.
Proof.
  intros (f & tn & s1 & s2 & Hv & Hle) Hp Hb. destruct (visit_key P _ _ _ _ _ _ _ _ _ _ Hv Hp) as (k' & Hin & _).
  destruct (HclA _ (le_dom _ _ Hle _ (seen_get_dom _ _ _ Hin))) as (body' & Hb' & Hw).
  rewrite Hb in Hb'. inversion Hb'. exact Hw.
Qed.

Lemma A_cons sg n ns : CovLA sg (n :: ns) ->
  CovNA sg n /\ (forall f a, assigned P f n = Ok a -> CovLA (sg ++ a) ns).
Proof.
  intros (S & f & tn & s1 & s2 & Hs & HS & Hle). simpl in Hs. apply bind_ok in Hs. destruct Hs as (sm & E & Hs).
  split.
  - exists f, tn, s1, sm. split; [exact E | exact (le_trans _ _ _ (seq_visit_le P _ _ _ _ _ _ Hs) Hle)].
  - intros f2 a _. exists (sc_flat (a_scope sm)), f, tn, sm, s2. split; [exact Hs|]. split; [apply incl_refl | exact Hle].
Qed.

Lemma A_sound fe data body :
  alookup (pg_root P) (pg_tpls P) = Some body -> fullwalk P A body ->
  Forall QA (d_trace (exec_prog P fe data)).
Proof.
  intros Hb Hw. unfold exec_prog. rewrite Hb.
  refine (proj1 (sim_nodes P QA CovNA CovLA A_tag A_exprs A_children A_partial A_cons fe _ [] body d_init Hw _)).
  split; [constructor | intros m mc H; discriminate].
Qed.
End InstA.

(* ------------------------------------------------ B: the globals clause *)
Section InstB.
Variable A : astate.
Hypothesis HclB : closedB P A.

Definition QB (e : event) : Prop :=
  match e with
  | ERead p true false => In p (a_globals A)
  | _ => True
  end.
Definition CovNB (sg : list str) (n : node) : Prop :=
  exists f jg tn st1 st2, visit P f jg tn n st1 = Ok st2 /\ incl (sc_flat (a_scope st1)) sg /\ le_st st2 A.
Definition CovLB (sg : list str) (ns : list node) : Prop := exists jg, walked P A jg ns sg.

Lemma B_tag sg n t : CovNB sg n -> n_tag n = Some t -> QB (ETag t).
Proof. intros; exact I. Qed.

Lemma B_exprs sg n e : CovNB sg n -> In e (n_exprs n) ->
  okpaths QB sg (expr_paths e) /\ (forall fn, In fn (expr_filters e) -> QB (EFilter fn)).
Proof.
  intros (f & jg & tn & s1 & s2 & Hv & HS & Hle) He. split; [|intros; exact I].
  intros p Hp g. simpl. destruct g; [|exact I]. destruct (mem (p_root p) sg) eqn:Hm; [exact I|].
  apply (le_globals _ _ Hle), (le_globals _ _ (visit_le_pre P _ _ _ _ _ _ Hv)).
  apply (pre_visit_globals _ _ _ _ e p He Hp).
  unfold sc_mem. destruct (mem (p_root p) (sc_flat (a_scope s1))) eqn:Hm2; [|reflexivity].
  apply mem_In, HS, mem_In in Hm2. congruence.
Qed.

Lemma B_children sg n : CovNB sg n -> n_partial n = None -> CovLB (sg ++ n_tscope n ++ n_bscope n) (n_children n).
Proof.
  intros (f & jg & tn & s1 & s2 & Hv & HS & Hle) Hp. destruct (visit_children P _ _ _ _ _ _ Hv Hp) as (f' & s3 & Hs & Hle3).
  exists jg, f', tn. eexists. exists s3.
  split; [exact Hs|]. split; [|eapply le_trans; eassumption].
  simpl. rewrite sc_flat_push.
  apply incl_app; [apply incl_appr, incl_appr, incl_refl | rewrite app_assoc; apply incl_appl, pre_visit_flat, HS].
Qed.

Lemma B_partial sg n pname iso insc key body :
  CovNB sg n -> n_partial n = Some (pname, iso, insc, key) -> alookup pname (pg_tpls P) = Some body ->
  CovLB (if iso then insc else sg ++ insc) body.
Proof.
  intros (f & jg & tn & s1 & s2 & Hv & HS & Hle) Hp Hb. destruct (visit_key P _ _ _ _ _ _ _ _ _ _ Hv Hp) as (k' & Hin & He).
  destruct k' as [|key' vis']; [discriminate|]. simpl in He. apply andb_true_iff in He. destruct He as [_ He].
  apply set_eqb_incl in He. destruct He as [_ Hsub].
  destruct (HclB _ _ _ (le_seen _ _ Hle _ _ Hin)) as (body' & Hb' & jg' & Hw). rewrite Hb in Hb'. inversion Hb'; subst body'.
  exists jg'. apply (walked_incl _ _ _ _ _ _ Hw), (incl_tran Hsub).
  destruct iso; [apply incl_refl|].
  pose proof (pre_visit_flat jg tn n s1 sg HS) as Hf. rewrite (partial_no_tscope _ _ Hp), app_nil_r in Hf.
  apply incl_app_app; [exact Hf | apply incl_refl].
Qed.

Lemma B_cons sg n ns : CovLB sg (n :: ns) ->
  CovNB sg n /\ (forall f a, assigned P f n = Ok a -> CovLB (sg ++ a) ns).
Proof.
  intros (jg & f & tn & s1 & s2 & Hs & HS & Hle). simpl in Hs. apply bind_ok in Hs. destruct Hs as (sm & E & Hs).
  split.
  - exists f, jg, tn, s1, sm. split; [exact E|]. split; [exact HS | exact (le_trans _ _ _ (seq_visit_le P _ _ _ _ _ _ Hs) Hle)].
  - intros f2 a Ha. exists jg, f, tn, sm, s2. split; [exact Hs|]. split; [|exact Hle].
    destruct (grows_flat _ _ _ _ (visit_scope P _ _ _ _ _ _ E) HS) as (extra & Hw & Hi).
    apply (incl_tran Hi), incl_app_app; [apply incl_refl | exact (Hw _ _ Ha)].
Qed.

Lemma B_sound fe data body :
  alookup (pg_root P) (pg_tpls P) = Some body -> walked P A false body [] ->
  Forall QB (d_trace (exec_prog P fe data)).
Proof.
  intros Hb Hw. unfold exec_prog. rewrite Hb.
  refine (proj1 (sim_nodes P QB CovNB CovLB B_tag B_exprs B_children B_partial B_cons fe _ [] body d_init _ _)).
  - exists false. exact Hw.
  - split; [constructor | intros m mc H; discriminate].
Qed.
End InstB.

(* every event of every render is of the kind the completed analysis accounts for *)
Lemma trace_QA fa fe data A : analyze P fa = Ok A -> Forall (QA A) (d_trace (exec_prog P fe data)).
Proof.
  intro Ha. destruct (analyze_closed P fa A Ha) as (body & Hb & Hw & HA & _).
  exact (A_sound A HA fe data body Hb (ex_intro _ [] Hw)).
Qed.

Lemma trace_QB fa fe data A : analyze P fa = Ok A -> Forall (QB A) (d_trace (exec_prog P fe data)).
Proof.
  intro Ha. destruct (analyze_closed P fa A Ha) as (body & Hb & Hw & _ & HB).
  exact (B_sound A HB fe data body Hb Hw).
Qed.

End Instances.

(* ================================================================== programs of the witnesses and examples *)
(* membership of a concrete element in a concrete list, settled by one evaluation: the test finds an element,
   and it is syntactically the one asked for, so nothing needs to be known about the test.  (A proof of In by
   nested disjunctions grows with the square of the position.) *)
Lemma In_find {X} (eqb : X -> X -> bool) x l : find (eqb x) l = Some x -> In x l.
Proof. intro H. exact (proj1 (find_some _ _ H)). Qed.

Definition q_main : str := [109; 97; 105; 110]%N.
Definition q_p1 : str := [112; 49]%N.
Definition q_p2 : str := [112; 50]%N.
Definition q_x : str := [120]%N.
Definition q_y : str := [121]%N.
Definition q_z : str := [122]%N.
Definition q_v : str := [118]%N.
Definition q_xs : str := [120; 115]%N.
Definition q_go : str := [103; 111]%N.
Definition q_upcase : str := [117; 112; 99; 97; 115; 101]%N.
Definition pv (s : str) : path := Path s [].
Definition outv (s : str) : node := NOutput (plain (AVar (pv s))).

(* for x in xs: include p1 / include p1, with p1 = x *)
Definition W_seen : prog :=
  {| pg_root := q_main;
     pg_tpls := [(q_main, [NFor q_x (IPath (pv q_xs)) la_none [NInclude q_p1 None []] []; NInclude q_p1 None []]);
                 (q_p1, [NText; outv q_x])] |}.
Definition W_seen_data : list (str * value) := [(q_xs, VList [VInt 1; VInt 2]); (q_x, VStr [71%N])].

(* if go: render main, go: false / render p1, with p1 = y | upcase, assign z = 1 *)
Definition W_jg : prog :=
  {| pg_root := q_main;
     pg_tpls := [(q_main, [NIf false (CTruthy (AVar (pv q_go))) [NRender q_main None [(q_go, ALit (VBool false))]] [] [];
                           NRender q_p1 None []]);
                 (q_p1, [NText; NOutput {| e_left := AVar (pv q_y); e_filters := [{| f_name := q_upcase; f_args := [] |}] |};
                         NAssign q_z (plain (ALit (VInt 1)))])] |}.
Definition W_jg_data : list (str * value) := [(q_go, VBool true); (q_y, VStr [104%N])].

(* if go: render p1 / v, with p1 = include p2, p2 = assign v = 1 *)
Definition W_inc : prog :=
  {| pg_root := q_main;
     pg_tpls := [(q_main, [NIf false (CTruthy (AVar (pv q_go))) [NRender q_p1 None []] [] []; outv q_v]);
                 (q_p1, [NText; NInclude q_p2 None []]);
                 (q_p2, [NText; NAssign q_v (plain (ALit (VInt 1)))])] |}.
Definition W_inc_data : list (str * value) := [(q_v, VStr [71%N])].

(* the widened language: unless/elsif, case/when, tablerow over a range, cycle, liquid, a nested path *)
Definition q_a : str := [97]%N.
Definition q_b : str := [98]%N.
Definition q_k : str := [107]%N.
Definition q_c0 : str := [99]%N.
Definition W_wide : prog :=
  {| pg_root := q_main;
     pg_tpls := [(q_main,
        [NIf true (CTruthy (AVar (pv q_go))) [outv q_x] [(CEq (AVar (pv q_v)) (ALit (VInt 1)), [outv q_y])] [outv q_z];
         NCase (AVar (pv q_v)) [([ALit (VInt 1); ALit (VInt 1)], [outv q_a])] [outv q_b];
         NTablerow q_x (IRange (ALit (VInt 1)) (AVar (pv q_y))) la_none [outv q_x];
         NLiquid [NCycle None [AVar (pv q_a)];
                  NEcho (plain (AVar (Path q_a [SSub (Path q_b [SKey q_k; SSub (pv q_c0)])])))];
         NDecrement q_z; outv q_z])] |}.
Definition W_wide_data : list (str * value) := [(q_go, VBool true); (q_v, VInt 1); (q_y, VInt 2); (q_b, VMap [(q_k, VStr q_k)])].


(* a loop with limit, offset and cols given as paths, the limit unconvertible: the render fails at the limit,
   yet all three are reported; with a convertible limit all three are read *)
Definition q_lim : str := [108; 105; 109]%N.
Definition q_off : str := [111; 102; 102]%N.
Definition q_c : str := [99]%N.
Definition W_loop : prog :=
  {| pg_root := q_main;
     pg_tpls := [(q_main,
        [NTablerow q_x (IPath (pv q_xs))
           {| la_limit := Some (AVar (pv q_lim)); la_offset := Some (OffAtom (AVar (pv q_off))); la_reversed := true;
              la_cols := Some (AVar (pv q_c)) |} [outv q_x];
         NFor q_x (IPath (pv q_xs)) {| la_limit := None; la_offset := Some OffContinue; la_reversed := false; la_cols := None |}
           [outv q_x] []])] |}.
Definition W_loop_data (lim : value) : list (str * value) :=
  [(q_xs, VList [VInt 1; VInt 2; VInt 3]); (q_lim, lim); (q_off, VInt 1); (q_c, VInt 2)].

