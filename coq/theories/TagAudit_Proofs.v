(* The tag audit of TagAudit.v: it returns a report for every token list; unknown tags and blocks left open are always
   reported; what a register that passes wf_envb guarantees about its names.  That a well-nested source raises no alarm
   is proved in TagWalk_Proofs.v, for a grammar that contains this file's. *)
From LiquidVerif Require Import Prelude TagAudit.

Lemma mem_In x l : mem x l = true <-> In x l.
Proof.
  induction l as [|y l IH]; simpl; [split; [discriminate|tauto]|].
  rewrite orb_true_iff, IH, str_eqb_eq. split; intros [H|H]; auto.
Qed.

Lemma mem_false_In x l : mem x l = false <-> ~ In x l.
Proof. rewrite <- mem_In. destruct (mem x l); split; congruence. Qed.

Lemma mem_app x a b : mem x (a ++ b) = mem x a || mem x b.
Proof. induction a as [|y a IH]; simpl; [reflexivity|]. rewrite IH, orb_assoc. reflexivity. Qed.

Lemma starts_end_app s : starts_end (s_end ++ s) = true.
Proof. reflexivity. Qed.

Lemma drop3_app s : drop3 (s_end ++ s) = s.
Proof. reflexivity. Qed.

Lemma mem_dedup x l : mem x (dedup l) = mem x l.
Proof.
  induction l as [|y l IH]; [reflexivity|]. cbn [dedup].
  destruct (mem y l) eqn:Ey; cbn [mem]; rewrite IH; [|reflexivity].
  destruct (str_eqb_spec x y) as [->|_]; [rewrite Ey; reflexivity|reflexivity].
Qed.

Lemma mem_end_tags x toks : mem x (dedup (end_tags_of toks)) = true <-> In x toks /\ starts_end x = true.
Proof. rewrite mem_dedup, mem_In. unfold end_tags_of. apply filter_In. Qed.

Lemma not_end_tag t toks : starts_end t = false -> mem t (dedup (end_tags_of toks)) = false.
Proof.
  intro Hse. destruct (mem t (dedup (end_tags_of toks))) eqn:Em; [|reflexivity].
  apply mem_end_tags in Em as [_ Em]. congruence.
Qed.

(* the main loop never fails: an end tag on an empty stack is reported, not popped *)
Lemma audit_loop_total e bt et : forall toks stack r,
  exists sr, audit_loop false e bt et toks stack r = Ok sr.
Proof.
  induction toks as [|t rest IH]; intros stack r; cbn [audit_loop]; [eauto|].
  destruct (mem t bt); [apply IH|].
  destruct (mem t et); [|apply IH].
  destruct stack; apply IH.
Qed.

Theorem audit_total e toks : exists r, audit e toks = Ok r.
Proof.
  unfold audit, audit_gen.
  destruct (audit_loop_total e (map drop3 (dedup (end_tags_of toks)) ++ block_names e)
              (dedup (end_tags_of toks)) toks [] empty_report) as [sr ->].
  cbn [bind]. eauto.
Qed.

Lemma loop_unknown_grows old e bt et : forall toks stack r sr,
  audit_loop old e bt et toks stack r = Ok sr -> forall x, In x (unknown r) -> In x (unknown (snd sr)).
Proof.
  induction toks as [|t rest IH]; intros stack r sr H x Hx; cbn [audit_loop] in H.
  - inversion H; subst. exact Hx.
  - assert (Hc : forall st, In x (unknown (classify e t st r))).
    { intro st. unfold classify. destruct (mem t (registered_tags e)); [exact Hx|].
      destruct (enclosing e t); [cbn; apply in_or_app; left; exact Hx|].
      destruct (existsb _ _); exact Hx. }
    destruct (mem t bt); [exact (IH _ _ _ H x (Hc _))|].
    destruct (mem t et).
    + destruct stack as [|top stack'].
      * destruct old; [discriminate|]. exact (IH _ _ _ H x Hx).
      * apply (IH _ _ _ H x). unfold pop_report. destruct (str_eqb top (drop3 t)); exact Hx.
    + exact (IH _ _ _ H x (Hc _)).
Qed.

Lemma loop_reports_unknown old e bt et t :
  mem t et = false -> mem t (registered_tags e) = false -> enclosing e t = [] ->
  forall toks stack r sr, In t toks -> audit_loop old e bt et toks stack r = Ok sr -> In t (unknown (snd sr)).
Proof.
  intros Het Hreg Henc. induction toks as [|u rest IH]; intros stack r sr Hin H; [destruct Hin|].
  cbn [audit_loop] in H. destruct Hin as [->|Hin].
  - rewrite Het in H.
    assert (Hc : forall st, In t (unknown (classify e t st r))).
    { intro st. unfold classify. rewrite Hreg, Henc. cbn. apply in_or_app. right. left. reflexivity. }
    destruct (mem t bt); exact (loop_unknown_grows _ _ _ _ _ _ _ _ H t (Hc _)).
  - destruct (mem u bt); [exact (IH _ _ _ Hin H)|].
    destruct (mem u et); [|exact (IH _ _ _ Hin H)].
    destruct stack as [|top stack']; [destruct old; [discriminate|]|]; exact (IH _ _ _ Hin H).
Qed.

(* a tag that is neither registered, nor an inner tag of any block, nor end-like is reported as unknown *)
Theorem unknown_reported e toks t r :
  In t toks -> starts_end t = false -> mem t (registered_tags e) = false -> enclosing e t = [] ->
  audit e toks = Ok r -> In t (unknown r).
Proof.
  intros Hin Hse Hreg Henc. unfold audit, audit_gen.
  destruct (audit_loop false e _ _ toks [] empty_report) as [sr| |] eqn:El; cbn [bind]; try discriminate.
  intro H. inversion H; subst. cbn [unknown]. apply in_or_app. left.
  exact (loop_reports_unknown false e _ _ t (not_end_tag t toks Hse) Hreg Henc toks [] empty_report sr Hin El).
Qed.

Lemma count_app x a b : count x (a ++ b) = count x a + count x b.
Proof. induction a as [|y a IH]; simpl; [reflexivity|]. rewrite IH. lia. Qed.

Lemma count_rev x l : count x (rev l) = count x l.
Proof. induction l as [|y l IH]; simpl; [reflexivity|]. rewrite count_app, IH. simpl. lia. Qed.

Lemma classify_unclosed e t st r : unclosed (classify e t st r) = unclosed r.
Proof.
  unfold classify. destruct (mem t (registered_tags e)); [reflexivity|].
  destruct (enclosing e t); [reflexivity|]. destruct (existsb _ _); reflexivity.
Qed.

Lemma loop_unclosed_count old e bt et x :
  mem x bt = true -> mem x et = false ->
  (forall u, mem u et = true -> drop3 u <> x) ->
  forall toks stack r sr, audit_loop old e bt et toks stack r = Ok sr ->
  count x (unclosed (snd sr)) + count x (fst sr) = count x (unclosed r) + count x stack + count x toks.
Proof.
  intros Hbt Het Hno. induction toks as [|t rest IH]; intros stack r sr H; cbn [audit_loop] in H.
  - inversion H; subst. simpl. lia.
  - cbn [count]. destruct (str_eqb_spec x t) as [<-|Hne].
    + rewrite Hbt in H. rewrite (IH _ _ _ H), classify_unclosed. cbn [count]. rewrite str_eqb_refl. lia.
    + destruct (mem t bt).
      * rewrite (IH _ _ _ H), classify_unclosed. cbn [count]. destruct (str_eqb_spec x t); [contradiction|]. lia.
      * destruct (mem t et) eqn:Em.
        -- destruct stack as [|top stack'].
           ++ destruct old; [discriminate|]. rewrite (IH _ _ _ H). simpl. lia.
           ++ rewrite (IH _ _ _ H). unfold pop_report. cbn [count].
              destruct (str_eqb_spec top (drop3 t)) as [E|E].
              ** destruct (str_eqb_spec x top) as [->|_]; [exfalso; exact (Hno t Em (eq_sym E))|]. lia.
              ** cbn [unclosed]. rewrite count_app. cbn [count]. destruct (str_eqb x top); lia.
        -- rewrite (IH _ _ _ H), classify_unclosed. lia.
Qed.

Theorem unclosed_reported e toks x r :
  In x (block_names e) -> starts_end x = false ->
  (forall u, In u toks -> starts_end u = true -> drop3 u <> x) ->
  audit e toks = Ok r -> count x (unclosed r) = count x toks.
Proof.
  intros Hb Hse Hno. unfold audit, audit_gen.
  destruct (audit_loop false e _ _ toks [] empty_report) as [sr| |] eqn:El; cbn [bind]; try discriminate.
  intro H. inversion H; subst. cbn [unclosed]. rewrite count_app, count_rev.
  eapply loop_unclosed_count in El.
  - cbn in El. exact El.
  - rewrite mem_app. apply orb_true_iff. right. apply mem_In. exact Hb.
  - apply not_end_tag, Hse.
  - intros u Hu. apply mem_end_tags in Hu as [Hin Hu]. exact (Hno u Hin Hu).
Qed.

Lemma flat_map_nil {A B} (f : A -> list B) l : (forall x, In x l -> f x = []) -> flat_map f l = [].
Proof.
  induction l as [|x l IH]; intro H; [reflexivity|]. cbn [flat_map].
  rewrite (H x (or_introl eq_refl)), IH; [reflexivity|]. intros y Hy. apply H. right. exact Hy.
Qed.

Lemma interrupt_not_registered_tag e t : is_loop_interrupt t = true -> mem t (registered_tags e) = false.
Proof.
  intro Hi. apply mem_false_In. unfold registered_tags. rewrite filter_In. intros [_ H].
  unfold is_loop_interrupt in Hi. rewrite Hi in H. discriminate.
Qed.

Lemma registered_tag_mem e t : In t (registered e) -> is_loop_interrupt t = false -> mem t (registered_tags e) = true.
Proof.
  intros Hin Hi. apply mem_In. unfold registered_tags. rewrite filter_In. split; [exact Hin|].
  unfold is_loop_interrupt in Hi. rewrite Hi. reflexivity.
Qed.

Lemma interrupt_noend t : is_loop_interrupt t = true -> starts_end t = false.
Proof.
  unfold is_loop_interrupt. rewrite orb_true_iff, !str_eqb_eq. intros [->| ->]; reflexivity.
Qed.

(* when a tag that is not an end tag is passed over in silence *)
Lemma classify_registered e t st r : In t (registered e) -> is_loop_interrupt t = false -> classify e t st r = r.
Proof. intros Hin Hi. unfold classify. rewrite (registered_tag_mem e t Hin Hi). reflexivity. Qed.

Lemma classify_enclosed e t st r : existsb (fun b => mem b st) (enclosing e t) = true -> classify e t st r = r.
Proof.
  intro Hex. unfold classify. destruct (mem t (registered_tags e)); [reflexivity|].
  destruct (enclosing e t); [discriminate|]. rewrite Hex. reflexivity.
Qed.

Section WF.
  Variable e : tagenv.
  Hypothesis Hwf : wf_envb e = true.

  Let wf_parts : forallb (fun ne => match snd ne with [] => true | en => str_eqb en (s_end ++ fst ne) end) (blocks e) = true
           /\ forallb (fun n => negb (starts_end n)) (registered e) = true
           /\ forallb (fun n => negb (starts_end n)) (all_inner e) = true
           /\ forallb (fun n => negb (mem n (inlines e))) (block_names e) = true
           /\ forallb (fun n => negb (is_loop_interrupt n)) (block_names e) = true
           /\ forallb (fun n => negb (mem n (block_names e))) (all_inner e) = true
           /\ nodupb (block_names e) = true.
  Proof. unfold wf_envb in Hwf. do 6 (apply andb_true_iff in Hwf as [Hwf ?]). repeat split; assumption. Qed.

  Lemma wf_end_shape n en : In (n, en) (blocks e) -> en = [] \/ en = s_end ++ n.
  Proof.
    intro Hin. destruct wf_parts as (Ha & _). pose proof (proj1 (forallb_forall _ _) Ha _ Hin) as H. cbn [fst snd] in H.
    destruct en as [|c en']; [left; reflexivity|right]. apply str_eqb_eq. exact H.
  Qed.

  Lemma wf_registered_noend n : In n (registered e) -> starts_end n = false.
  Proof. intro Hin. destruct wf_parts as (_ & Hb & _). apply negb_true_iff, (proj1 (forallb_forall _ _) Hb _ Hin). Qed.

  Lemma wf_block_noend n : In n (block_names e) -> starts_end n = false.
  Proof. intro H. apply wf_registered_noend. unfold registered. apply in_or_app. left. exact H. Qed.

  Lemma wf_inline_noend n : In n (inlines e) -> starts_end n = false.
  Proof. intro H. apply wf_registered_noend. unfold registered. apply in_or_app. right. exact H. Qed.

  Lemma wf_inner_noend n : In n (all_inner e) -> starts_end n = false.
  Proof. intro Hin. destruct wf_parts as (_ & _ & Hc & _). apply negb_true_iff, (proj1 (forallb_forall _ _) Hc _ Hin). Qed.

  Lemma wf_block_not_inline n : In n (block_names e) -> mem n (inlines e) = false.
  Proof. intro Hin. destruct wf_parts as (_ & _ & _ & Hd & _). apply negb_true_iff, (proj1 (forallb_forall _ _) Hd _ Hin). Qed.

  Lemma wf_block_not_interrupt n : In n (block_names e) -> is_loop_interrupt n = false.
  Proof. intro Hin. destruct wf_parts as (_ & _ & _ & _ & He & _). apply negb_true_iff, (proj1 (forallb_forall _ _) He _ Hin). Qed.

  (* every registered end tag is "end" ++ the name of its block *)
  Lemma registered_end_shape t : In t (registered_ends e) -> exists n, In n (block_names e) /\ t = s_end ++ n.
  Proof.
    unfold registered_ends, block_names. rewrite in_map_iff. intros ([n en] & Ht & Hin). cbn [fst snd] in Ht.
    exists n. split; [apply in_map_iff; exists (n, en); auto|].
    destruct (wf_end_shape n en Hin) as [->| ->]; subst t; reflexivity.
  Qed.

  Lemma wf_inline_not_end n : In n (inlines e) -> mem n (registered_ends e) = false.
  Proof.
    intro Hn. apply mem_false_In. intro Hr. destruct (registered_end_shape n Hr) as (m & _ & ->).
    apply wf_inline_noend in Hn. discriminate.
  Qed.

  Lemma end_of_shape top en : end_of (blocks e) top = Some en -> en = s_end ++ top.
  Proof.
    assert (Hgen : forall l, (forall n en, In (n, en) l -> en = [] \/ en = s_end ++ n) ->
                    end_of l top = Some en -> en = s_end ++ top).
    { induction l as [|[n en0] l IH]; intros Hl; cbn [end_of]; [discriminate|].
      destruct (str_eqb_spec n top) as [->|Hne].
      - intro E. inversion E; subst. destruct (Hl top en0 (or_introl eq_refl)) as [->| ->]; reflexivity.
      - apply IH. intros n' en' H'. apply Hl. right. exact H'. }
    apply Hgen. exact wf_end_shape.
  Qed.

  Lemma end_of_in l n : In n (map fst l) -> exists en, end_of l n = Some en.
  Proof.
    induction l as [|[n' en'] l IH]; intro Hn; [destruct Hn|]. cbn [end_of].
    destruct (str_eqb_spec n' n) as [->|Hne]; [eexists; reflexivity|].
    apply IH. destruct Hn as [E|Hn]; [contradiction|exact Hn].
  Qed.

  (* the end tag of a registered block: not a block name, a registered end, and the one [end_of] gives *)
  Lemma block_end_registered n : In n (block_names e) ->
    mem (s_end ++ n) (block_names e) = false /\ mem (s_end ++ n) (registered_ends e) = true /\
    end_of (blocks e) n = Some (s_end ++ n).
  Proof.
    intro Hn. split; [|split].
    - apply mem_false_In. intro H. apply wf_block_noend in H. discriminate.
    - apply mem_In. unfold block_names in Hn. apply in_map_iff in Hn. destruct Hn as ([n' en] & E & Hin). cbn in E. subst n'.
      unfold registered_ends. apply in_map_iff. exists (n, en). split; [|exact Hin]. cbn [fst snd].
      destruct (wf_end_shape n en Hin) as [->| ->]; reflexivity.
    - destruct (end_of_in (blocks e) n Hn) as [en E]. rewrite E. f_equal. apply end_of_shape, E.
  Qed.

  Lemma enclosing_inner top t : mem top (enclosing e t) = true -> In t (all_inner e).
  Proof.
    rewrite mem_In. unfold enclosing. rewrite in_map_iff. intros ([b ts] & _ & Hin).
    rewrite filter_In in Hin. destruct Hin as [Hin Hm]. cbn [snd] in Hm.
    unfold all_inner. rewrite in_flat_map. exists (b, ts). split; [exact Hin|]. apply mem_In. exact Hm.
  Qed.

End WF.
