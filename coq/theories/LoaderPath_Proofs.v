(* Proofs about the loader name-resolution model (LoaderPath.v): parsing gives clean components and undoes str();
   the extension rule and the names each loader accepts; a load answers with a location or TemplateNotFoundError;
   what a successful search returns lies under a search directory. *)
From LiquidVerif Require Import Prelude LoaderPath.

(* a component as pathlib keeps them: not empty, not ".", without a separator *)
Definition clean (x : str) : Prop := x <> [] /\ x <> [dot] /\ ~ In slash x.

(* ------------------------------------------------------------------ str.split('/') *)
Lemma split_slash_nonempty s : split_slash s <> [].
Proof.
  induction s as [|c r IH]; cbn; [discriminate|].
  destruct (N.eqb c slash); [discriminate|]. destruct (split_slash r); discriminate.
Qed.

Lemma split_slash_pieces s : forall x, In x (split_slash s) -> ~ In slash x.
Proof.
  induction s as [|c r IH]; cbn; intros x Hx.
  - destruct Hx as [<-|[]]. intros [].
  - destruct (N.eqb_spec c slash) as [->|Hc].
    + destruct Hx as [<-|Hx]; [intros []|auto].
    + destruct (split_slash r) as [|h t] eqn:E.
      * destruct Hx as [<-|[]]. intros [H|[]]. congruence.
      * destruct Hx as [<-|Hx].
        -- intros [H|H]; [congruence|]. apply (IH h); [left; reflexivity|exact H].
        -- apply IH. right; exact Hx.
Qed.

Lemma split_no_slash x : ~ In slash x -> split_slash x = [x].
Proof.
  induction x as [|c r IH]; cbn; intro H; [reflexivity|].
  destruct (N.eqb_spec c slash) as [->|Hc]; [exfalso; apply H; left; reflexivity|].
  rewrite IH; [reflexivity|]. intro H'. apply H. right; exact H'.
Qed.

Lemma split_app x s : ~ In slash x -> split_slash (x ++ slash :: s) = x :: split_slash s.
Proof.
  induction x as [|c r IH]; cbn; intro H.
  - reflexivity.
  - destruct (N.eqb_spec c slash) as [->|Hc]; [exfalso; apply H; left; reflexivity|].
    rewrite IH; [reflexivity|]. intro H'. apply H. right; exact H'.
Qed.

Lemma split_join l : l <> [] -> (forall x, In x l -> ~ In slash x) -> split_slash (join_slash l) = l.
Proof.
  induction l as [|x l IH]; intros Hne Hall; [congruence|].
  destruct l as [|y l].
  - cbn. apply split_no_slash. apply Hall. left; reflexivity.
  - change (join_slash (x :: y :: l)) with (x ++ slash :: join_slash (y :: l)).
    rewrite split_app by (apply Hall; left; reflexivity).
    f_equal. apply IH; [discriminate|]. intros z Hz. apply Hall. right; exact Hz.
Qed.

(* ------------------------------------------------------------------ parsing *)
Lemma keep_part_clean x : ~ In slash x -> keep_part x = true -> clean x.
Proof.
  unfold keep_part, clean. intros Hs H. apply andb_true_iff in H. destruct H as [H1 H2].
  repeat split; auto.
  - intros ->. discriminate.
  - intros ->. cbn in H2. discriminate.
Qed.

Lemma clean_keep x : clean x -> keep_part x = true.
Proof.
  intros (H1 & H2 & _). unfold keep_part. destruct x; [congruence|]. cbn [is_nil negb andb].
  destruct (str_eqb_spec (n :: x) [dot]); [congruence|reflexivity].
Qed.

Theorem parse_parts_clean s : Forall clean (p_parts (parse s)).
Proof.
  unfold parse. destruct (splitroot s) as [r rel]. cbn. apply Forall_forall. intros x Hx.
  apply filter_In in Hx. destruct Hx as [Hx Hk]. apply keep_part_clean; [|exact Hk].
  eapply split_slash_pieces; eauto.
Qed.

Lemma filter_all {A} (f : A -> bool) l : (forall x, In x l -> f x = true) -> filter f l = l.
Proof.
  induction l as [|a l IH]; cbn; intro H; [reflexivity|].
  rewrite (H a (or_introl eq_refl)). f_equal. apply IH. intros x Hx. apply H. right; exact Hx.
Qed.

Lemma starts_slash_join l : Forall clean l -> starts_slash (join_slash l) = false.
Proof.
  intros H. destruct l as [|x l]; [reflexivity|].
  inversion H as [|? ? (Hx1 & _ & Hx3) _]; subst.
  destruct x as [|c x]; [congruence|].
  assert (Hc : N.eqb c slash = false).
  { destruct (N.eqb_spec c slash) as [->|]; [|reflexivity]. exfalso. apply Hx3. left; reflexivity. }
  destruct l; cbn; exact Hc.
Qed.

Lemma splitroot_rel rel : starts_slash rel = false -> splitroot rel = (NoRoot, rel).
Proof. intro H. unfold splitroot. rewrite H. reflexivity. Qed.

Lemma splitroot_1 rel : starts_slash rel = false -> splitroot (slash :: rel) = (Root1, rel).
Proof.
  intro H. unfold splitroot. change (starts_slash (slash :: rel)) with true. cbn [tl]. rewrite H. reflexivity.
Qed.

Lemma splitroot_2 rel : starts_slash rel = false -> splitroot (slash :: slash :: rel) = (Root2, rel).
Proof.
  intro H. unfold splitroot. change (starts_slash (slash :: slash :: rel)) with true. cbn [tl].
  change (starts_slash (slash :: rel)) with true. cbn [tl]. rewrite H. reflexivity.
Qed.

(* str() followed by parsing gives the same path back: joinpath does not alter clean components *)
Theorem parse_render p : Forall clean (p_parts p) -> parse (render p) = p.
Proof.
  destruct p as [r l]. cbn [p_parts]. intro Hc.
  assert (Hf : filter keep_part (split_slash (join_slash l)) = l).
  { destruct l as [|x0 l0]; [reflexivity|]. rewrite split_join; [|discriminate|].
    - apply filter_all. intros x Hx. apply clean_keep. rewrite Forall_forall in Hc. auto.
    - intros x Hx. rewrite Forall_forall in Hc. apply (Hc x Hx). }
  pose proof (starts_slash_join l Hc) as Hs.
  destruct r; unfold render; cbn [p_root p_parts].
  - destruct l as [|x l]; [reflexivity|].
    unfold parse. rewrite splitroot_rel by exact Hs. rewrite Hf. reflexivity.
  - unfold parse. change ([slash] ++ join_slash l) with (slash :: join_slash l).
    rewrite splitroot_1 by exact Hs. rewrite Hf. reflexivity.
  - unfold parse. change ([slash; slash] ++ join_slash l) with (slash :: slash :: join_slash l).
    rewrite splitroot_2 by exact Hs. rewrite Hf. reflexivity.
Qed.

(* ------------------------------------------------------------------ name, suffix, the extension rule *)
Lemma last_dot_split_app s a b : last_dot_split s = Some (a, b) -> s = a ++ b.
Proof.
  revert a b. induction s as [|c r IH]; cbn; intros a b H; [discriminate|].
  destruct (last_dot_split r) as [[a' b']|].
  - inversion H; subst. cbn. f_equal. apply IH. reflexivity.
  - destruct (N.eqb c dot); inversion H; subst. reflexivity.
Qed.

(* a name without a suffix is its own stem *)
Lemma stem_nosuffix nm : is_nil (suffix nm) = true -> stem nm = nm.
Proof.
  unfold suffix, stem. destruct (last_dot_split nm) as [[a b]|]; [|reflexivity].
  destruct (is_nil a || is_nil (tl b)) eqn:E; [reflexivity|].
  apply orb_false_iff in E. destruct E as [_ E]. destruct b as [|x b]; [discriminate|discriminate].
Qed.

(* a valid default extension: not empty, no separator (the loaders' constructors refuse anything else);
   the package loader also accepts the empty extension *)
Definition ext_ok (e : str) : Prop := e <> [] /\ ~ In slash e.

Lemma in_removelast {A} (x : A) l : In x (removelast l) -> In x l.
Proof.
  induction l as [|a l IH]; cbn; [tauto|]. destruct l; [intros []|].
  intros [H|H]; [left; exact H|right; apply IH; exact H].
Qed.

Lemma name_in p : p_parts p <> [] -> In (name p) (p_parts p).
Proof.
  unfold name. intro Hne. rewrite (app_removelast_last [] Hne) at 2. apply in_or_app. right. left. reflexivity.
Qed.

Lemma name_nonempty_parts p : is_nil (name p) = false -> p_parts p <> [].
Proof. unfold name. destruct (p_parts p); [cbn; discriminate|discriminate]. Qed.

(* no component at all is the only way to have no name: '', '.', '/' *)
Lemma name_nil_parts s : is_nil (name (parse s)) = true -> p_parts (parse s) = [].
Proof.
  intro Hn. destruct (p_parts (parse s)) as [|x l] eqn:Ep; [reflexivity|]. exfalso.
  pose proof (parse_parts_clean s) as Hcl. rewrite Forall_forall in Hcl.
  destruct (Hcl (name (parse s))) as (H1 & _); [apply name_in; rewrite Ep; discriminate|].
  destruct (name (parse s)); [congruence|discriminate].
Qed.

Lemma suffixed_clean nm e : clean nm -> ext_ok e \/ e = [] -> clean (nm ++ e).
Proof.
  intros (H1 & H2 & H3) He. destruct He as [[He1 He2]| ->]; [|rewrite app_nil_r; repeat split; auto].
  repeat split.
  - destruct nm; [congruence|discriminate].
  - destruct nm as [|c [|d r]]; [congruence| |discriminate]. destruct e; [congruence|discriminate].
  - intro Hin. apply in_app_or in Hin. tauto.
Qed.

Lemma suffixed_not_dotdot nm e : clean nm -> nm <> dotdot -> ext_ok e \/ e = [] -> nm ++ e <> dotdot.
Proof.
  intros (H1 & H2 & _) Hd He. destruct He as [[He1 _]| ->]; [|rewrite app_nil_r; exact Hd].
  destruct nm as [|c [|d r]]; [congruence| |].
  - destruct e as [|x [|y e]]; [congruence| |discriminate]. cbn. unfold dotdot. intro E. inversion E; subst. congruence.
  - destruct e; [congruence|]. cbn. unfold dotdot. intro E. inversion E. destruct r; discriminate.
Qed.

(* The extension rule of both loaders as a total function: a name without a suffix gets the default extension
   appended to its last component.  (Path.with_suffix can only fail for an empty name, which is refused before.) *)
Definition with_ext (oe : option str) (p : ppath) : ppath :=
  match oe with
  | Some e => if is_nil (suffix (name p))
              then {| p_root := p_root p; p_parts := removelast (p_parts p) ++ [name p ++ e] |} else p
  | None => p
  end.

Lemma ext_rule e p :
  is_nil (name p) = false ->
  (if is_nil (suffix (name p)) then with_suffix e p else Ok p) = Ok (with_ext (Some e) p).
Proof.
  intro Hn. unfold with_ext, with_suffix. rewrite Hn.
  destruct (is_nil (suffix (name p))) eqn:Hs; [rewrite (stem_nosuffix _ Hs)|]; reflexivity.
Qed.

Lemma with_ext_clean oe p :
  (forall e, oe = Some e -> ext_ok e \/ e = []) -> Forall clean (p_parts p) -> is_nil (name p) = false ->
  p_root (with_ext oe p) = p_root p /\ Forall clean (p_parts (with_ext oe p)) /\ p_parts (with_ext oe p) <> [] /\
  (In dotdot (p_parts (with_ext oe p)) -> In dotdot (p_parts p)).
Proof.
  intros He Hc Hn. pose proof (name_nonempty_parts p Hn) as Hne. pose proof (name_in p Hne) as Hin.
  assert (Hsame : p_root p = p_root p /\ Forall clean (p_parts p) /\ p_parts p <> [] /\
                  (In dotdot (p_parts p) -> In dotdot (p_parts p))) by (repeat split; auto).
  unfold with_ext. destruct oe as [e|]; [|exact Hsame]. destruct (is_nil (suffix (name p))); [|exact Hsame].
  specialize (He e eq_refl). rewrite Forall_forall in Hc. cbn [p_root p_parts]. repeat split.
  - apply Forall_app. split.
    + apply Forall_forall. intros x Hx. apply Hc, in_removelast, Hx.
    + constructor; [|constructor]. apply suffixed_clean; [apply Hc, Hin|exact He].
  - intro E. apply app_eq_nil in E. destruct E as [_ E]. discriminate.
  - intro H. apply in_app_or in H. destruct H as [H|[H|[]]]; [apply in_removelast, H|].
    (* the extended name is "..": then the name itself was *)
    destruct (str_eqb_spec (name p) dotdot) as [E|E]; [rewrite <- E; exact Hin|].
    exfalso. revert H. apply suffixed_not_dotdot; [apply Hc, Hin|exact E|exact He].
Qed.

Lemma has_pardir_spec p : has_pardir p = true <-> In dotdot (p_parts p).
Proof.
  unfold has_pardir. rewrite existsb_exists. split.
  - intros (x & Hx & E). apply str_eqb_eq in E. subst. exact Hx.
  - intro H. exists dotdot. split; [exact H|apply str_eqb_refl].
Qed.

(* ------------------------------------------------------------------ which names are accepted *)
Lemma fs_resolve_name_eq c s :
  fs_resolve_name c s =
  if is_nil (name (parse s)) then Err ENotFound
  else let p1 := with_ext (f_ext c) (parse s) in
       if has_pardir p1 || is_absolute p1 then Err ENotFound else Ok p1.
Proof.
  unfold fs_resolve_name. destruct (is_nil (name (parse s))) eqn:Hn; [reflexivity|].
  destruct (f_ext c) as [e|]; [rewrite (ext_rule e _ Hn)|]; reflexivity.
Qed.

Lemma pkg_resolve_name_eq e s :
  pkg_resolve_name false e s =
  if is_nil (name (parse s)) then Err ENotFound
  else if has_pardir (parse s) || is_absolute (parse s) then Err ENotFound
       else Ok (with_ext (Some e) (parse s)).
Proof.
  unfold pkg_resolve_name. destruct (is_nil (name (parse s))) eqn:Hn; [reflexivity|].
  rewrite (ext_rule e _ Hn). reflexivity.
Qed.

(* what every name accepted by a loader satisfies: relative, no "..", at least one component, all clean *)
Definition accepted (p : ppath) : Prop :=
  p_root p = NoRoot /\ ~ In dotdot (p_parts p) /\ p_parts p <> [] /\ Forall clean (p_parts p).

Definition cfg_ok (c : fscfg) : Prop := match f_ext c with Some e => ext_ok e | None => True end.

Lemma cfg_ok_ext c e : cfg_ok c -> f_ext c = Some e -> ext_ok e \/ e = [].
Proof. unfold cfg_ok. intros H E. rewrite E in H. left. exact H. Qed.

Lemma not_absolute p : is_absolute p = false -> p_root p = NoRoot.
Proof. unfold is_absolute. destruct (p_root p); [reflexivity|discriminate|discriminate]. Qed.

Theorem fs_resolve_name_accepts c s p : cfg_ok c -> fs_resolve_name c s = Ok p -> accepted p.
Proof.
  intros Hc. rewrite fs_resolve_name_eq. destruct (is_nil (name (parse s))) eqn:Hn; [discriminate|]. cbv zeta.
  destruct (with_ext_clean (f_ext c) (parse s) (fun e => cfg_ok_ext c e Hc) (parse_parts_clean s) Hn)
    as (_ & Hcl & Hne & _).
  destruct (has_pardir _) eqn:Hp; [discriminate|]. destruct (is_absolute _) eqn:Ha; [discriminate|].
  intros [= <-]. split; [apply not_absolute, Ha|]. split; [|split; assumption].
  rewrite <- has_pardir_spec, Hp. discriminate.
Qed.

Theorem pkg_resolve_name_accepts e s p : ext_ok e \/ e = [] -> pkg_resolve_name false e s = Ok p -> accepted p.
Proof.
  intros He. rewrite pkg_resolve_name_eq. destruct (is_nil (name (parse s))) eqn:Hn; [discriminate|].
  assert (He' : forall e', Some e = Some e' -> ext_ok e' \/ e' = []) by (intros e' [= <-]; exact He).
  destruct (with_ext_clean (Some e) (parse s) He' (parse_parts_clean s) Hn) as (Hr & Hcl & Hne & Hd).
  destruct (has_pardir _) eqn:Hp; [discriminate|]. destruct (is_absolute _) eqn:Ha; [discriminate|].
  cbn [orb]. intro H. assert (p = with_ext (Some e) (parse s)) as -> by congruence.
  split; [rewrite Hr; apply not_absolute, Ha|]. split; [|split; assumption].
  intro Hin. apply Hd, has_pardir_spec in Hin. congruence.
Qed.

(* ------------------------------------------------------------------ answers: a result or TemplateNotFoundError *)
Definition answers {A} (r : res A) : Prop := r = Err ENotFound \/ exists x, r = Ok x.

Lemma answers_bind {A B} (r : res A) (f : A -> res B) : answers r -> (forall x, answers (f x)) -> answers (bind r f).
Proof. intros [->|[x ->]] Hf; [left; reflexivity|apply Hf]. Qed.

Lemma answers_err {A} (r : res A) e : answers r -> r = Err e -> e = ENotFound.
Proof. intros [->|[x ->]] [=]. congruence. Qed.

Lemma answers_fuel {A} (r : res A) : answers r -> r <> OutOfFuel.
Proof. intros [->|[x ->]]; discriminate. Qed.

Lemma fs_resolve_name_answers c s : answers (fs_resolve_name c s).
Proof.
  rewrite fs_resolve_name_eq. destruct (is_nil (name (parse s))); [left; reflexivity|]. cbv zeta.
  destruct (has_pardir _ || is_absolute _); [left; reflexivity|right; eexists; reflexivity].
Qed.

Lemma pkg_resolve_name_answers e s : answers (pkg_resolve_name false e s).
Proof.
  rewrite pkg_resolve_name_eq. destruct (is_nil (name (parse s))); [left; reflexivity|].
  destruct (has_pardir _ || is_absolute _); [left; reflexivity|right; eexists; reflexivity].
Qed.

(* ------------------------------------------------------------------ joining, prefixes, normalisation *)
Lemma joinpath_accepted b p : accepted p -> joinpath b p = b ++ p_parts p.
Proof.
  intros (Hr & _ & _ & Hc). unfold joinpath. rewrite parse_render by exact Hc. unfold join. rewrite Hr. reflexivity.
Qed.

Lemma is_prefix_app a r : is_prefix a (a ++ r) = true.
Proof. induction a as [|x a IH]; cbn; [reflexivity|]. rewrite str_eqb_refl. exact IH. Qed.

Lemma is_prefix_spec a b : is_prefix a b = true <-> exists r, b = a ++ r.
Proof.
  split.
  - revert b. induction a as [|x a IH]; intros b H; [exists b; reflexivity|].
    destruct b as [|y b]; [discriminate|]. cbn in H. apply andb_true_iff in H. destruct H as [H1 H2].
    apply str_eqb_eq in H1. subst. destruct (IH _ H2) as [r ->]. exists r. reflexivity.
  - intros [r ->]. apply is_prefix_app.
Qed.

(* lexical normalisation (".." removes the component before it) as a stack machine *)
Fixpoint fstack (st : list str) (l : list str) : list str :=
  match l with
  | [] => st
  | x :: r => if str_eqb x dotdot then fstack (tl st) r else fstack (x :: st) r
  end.

Lemma norm_acc_fstack st l : norm_acc st l = rev (fstack st l).
Proof. revert st. induction l as [|x r IH]; intro st; cbn; [reflexivity|]. destruct (str_eqb x dotdot); apply IH. Qed.

Lemma fstack_app st a b : fstack st (a ++ b) = fstack (fstack st a) b.
Proof. revert st. induction a as [|x a IH]; intro st; cbn; [reflexivity|]. destruct (str_eqb x dotdot); apply IH. Qed.

Lemma fstack_nodotdot st l : ~ In dotdot l -> fstack st l = rev l ++ st.
Proof.
  revert st. induction l as [|x r IH]; intros st H; cbn; [reflexivity|].
  destruct (str_eqb_spec x dotdot) as [->|Hx]; [exfalso; apply H; left; reflexivity|].
  rewrite IH by (intro H'; apply H; right; exact H'). rewrite <- app_assoc. reflexivity.
Qed.

(* appending components none of which is ".." cannot climb out of the base, however the base is spelled *)
Theorem norm_app_contained b l : ~ In dotdot l -> norm (b ++ l) = norm b ++ l.
Proof.
  intro H. unfold norm. rewrite !norm_acc_fstack, fstack_app, fstack_nodotdot by exact H.
  rewrite rev_app_distr, rev_involutive. reflexivity.
Qed.

(* ------------------------------------------------------------------ the search *)
(* the package loader's search is the file-system loader's without the symlink check *)
Lemma pkg_search_fs found v bases p :
  pkg_search found v bases p = fs_search found {| f_ext := None; f_reject := false |} v bases p.
Proof.
  induction bases as [|b rest IH]; cbn [pkg_search fs_search f_reject]; [reflexivity|].
  rewrite IH. destruct (stat v (joinpath b p)); reflexivity.
Qed.

Lemma fs_search_answers c v bases p : answers (fs_search false c v bases p).
Proof.
  induction bases as [|b rest IH]; cbn [fs_search]; [left; reflexivity|].
  destruct (stat v (joinpath b p)); auto.
  destruct (f_reject c); [|right; eexists; reflexivity].
  destruct (real v (joinpath b p)); auto. destruct (real v b); auto.
  destruct (is_prefix _ _); [right; eexists; reflexivity|exact IH].
Qed.

(* where a returned file lies, lexically: under one of the search directories, reached by clean components
   none of which is ".."; so also after normalising ".." in the base's own spelling (the last two conjuncts follow
   from the others: is_prefix_app, norm_app_contained) *)
Definition contained (bases : list apath) (q : apath) : Prop :=
  exists b l, In b bases /\ q = b ++ l /\ l <> [] /\ ~ In dotdot l /\ Forall clean l /\
              is_prefix b q = true /\ norm q = norm b ++ l.

(* what a successful search returns: a regular file, contained in a search directory b, and, when symlinks are
   rejected, resolving to a place under what b resolves to *)
Definition located (c : fscfg) (v : fsview) (bases : list apath) (q : apath) : Prop :=
  stat v q = SFile /\ contained bases q /\
  (f_reject c = true -> exists b rq rb, In b bases /\ is_prefix b q = true /\
                                        real v q = Some rq /\ real v b = Some rb /\ is_prefix rb rq = true).

Lemma located_cons c v b rest q : located c v rest q -> located c v (b :: rest) q.
Proof.
  intros (H1 & (b' & l & Hb' & H2) & H3). split; [exact H1|]. split.
  - exists b', l. split; [right; exact Hb'|exact H2].
  - intro Hr. destruct (H3 Hr) as (b0 & rq & rb & Hb0 & H4). exists b0, rq, rb. split; [right; exact Hb0|exact H4].
Qed.

Lemma fs_search_located c v bases p q : accepted p -> fs_search false c v bases p = Ok q -> located c v bases q.
Proof.
  intros Ha. pose proof Ha as (_ & Hnd & Hne & Hc).
  induction bases as [|b rest IH]; cbn [fs_search]; [discriminate|].
  assert (K : fs_search false c v rest p = Ok q -> located c v (b :: rest) q) by (intro H; apply located_cons, IH, H).
  destruct (stat v (joinpath b p)) eqn:Est; auto.
  (* a file in b: b ++ the components of the name *)
  assert (Hpre : is_prefix b (joinpath b p) = true) by (rewrite joinpath_accepted by exact Ha; apply is_prefix_app).
  assert (Hcont : contained (b :: rest) (joinpath b p)).
  { revert Hpre. rewrite joinpath_accepted by exact Ha. intro Hpre. exists b, (p_parts p).
    repeat split; auto; [left; reflexivity|apply norm_app_contained, Hnd]. }
  destruct (f_reject c) eqn:Er.
  - destruct (real v (joinpath b p)) as [rq|] eqn:E1; auto.
    destruct (real v b) as [rb|] eqn:E2; auto.
    destruct (is_prefix rb rq) eqn:E3; auto.
    intros [= <-]. split; [exact Est|]. split; [exact Hcont|]. intros _. exists b, rq, rb. repeat split; auto. left; reflexivity.
  - intros [= <-]. split; [exact Est|]. split; [exact Hcont|]. rewrite Er. discriminate.
Qed.

(* ------------------------------------------------------------------ a loader: resolve the name, then search *)
Lemma load_located (rn : res ppath) srch c v bases q :
  (forall p, srch p = fs_search false c v bases p) -> (forall p, rn = Ok p -> accepted p) ->
  bind rn srch = Ok q -> located c v bases q.
Proof.
  intros Hs Ha H. apply bind_ok in H. destruct H as (p & E & H). rewrite Hs in H.
  exact (fs_search_located _ _ _ _ _ (Ha p E) H).
Qed.

Lemma fs_load_answers c v bases s : answers (fs_load false c v bases s).
Proof. apply answers_bind; [apply fs_resolve_name_answers|]. intro p. apply fs_search_answers. Qed.

Lemma pkg_load_answers e v bases s : answers (pkg_load false e v bases s).
Proof.
  apply answers_bind; [apply pkg_resolve_name_answers|]. intro p. rewrite pkg_search_fs. apply fs_search_answers.
Qed.
