(* Proofs for C09: the generic block parser always advances; rendering with the context-depth bookkeeping never needs more
   than a bounded recursion depth; self-recursive partials end in ContextDepthError in strict mode and do work exponential in
   the limit in lax mode; the walk up an extends chain ends; the frame arithmetic. *)
From LiquidVerif Require Import Prelude TagTree Terminate.
Import ListNotations.

(* ------------------------------------------------------------------------------------------------ TagTree.parse_until *)
Definition goodT {A} (n : nat) (x : res (A * list ttok)) : Prop :=
  match x with Ok (_, rest) => List.length rest <= n | Err _ => True | OutOfFuel => False end.

Lemma goodT_mono {A} n n' (x : res (A * list ttok)) : n <= n' -> goodT n x -> goodT n' x.
Proof. destruct x as [[a r]| |]; simpl; lia. Qed.

Lemma goodT_bind {A B} n n' (x : res (A * list ttok)) (k : A * list ttok -> res (B * list ttok)) :
  goodT n x -> (forall a rest, List.length rest <= n -> goodT n' (k (a, rest))) -> goodT n' (bind x k).
Proof. destruct x as [[a rest]|e|]; simpl; auto. Qed.

Section TagTreeProgress.
  Variable kind_of : str -> tagkind.

  Lemma psections_good rec secs F :
    (forall ts', List.length ts' < F -> goodT (List.length ts') (rec ts')) ->
    forall g ts, List.length ts < g -> List.length ts <= F -> goodT (List.length ts) (psections rec secs g ts).
  Proof.
    intros Hrec. induction g as [|g IH]; intros ts Hg HF; [lia|].
    simpl. destruct ts as [|[s|s|s|e|sn se] r']; simpl; try lia.
    destruct (mem sn secs); [|simpl; lia]. simpl in Hg, HF.
    apply (goodT_bind (List.length r')); [apply Hrec; lia|]. intros sb rest H1.
    apply (goodT_bind (List.length rest)); [apply IH; simpl; lia|]. intros more rest2 H2. simpl in H2 |- *. lia.
  Qed.

  Lemma parse_until_good : forall f stops ts, List.length ts < f -> goodT (List.length ts) (parse_until kind_of f stops ts).
  Proof.
    induction f as [|f IH]; intros stops ts Hf; [lia|].
    destruct ts as [|t r]; [simpl; lia|]. simpl in Hf.
    assert (Hsimple : forall (k : node), goodT (S (List.length r)) (do x <- parse_until kind_of f stops r; Ok (k :: fst x, snd x))).
    { intros k. apply (goodT_bind (List.length r)); [apply IH; lia|]. intros a rest H. simpl. lia. }
    destruct t as [s|s|s|e|n e]; simpl; try apply Hsimple.
    destruct (mem n stops); [simpl; lia|].
    destruct (kind_of n) as [secs| |]; [|apply Hsimple|exact I].
    apply (goodT_bind (List.length r)); [apply IH; lia|]. intros b rest Hb.
    apply (goodT_bind (List.length rest)); [apply psections_good with (F := f); simpl; auto; lia|]. intros ss rest2 Hs. simpl in Hs |- *.
    destruct rest2 as [|[s|s|s|e1|en e1] r'']; try exact I.
    destruct (str_eqb en (endname n)); [|exact I]. simpl in Hs.
    apply (goodT_bind (List.length r'')); [apply IH; lia|]. intros a rest3 H3. simpl. lia.
  Qed.
End TagTreeProgress.

(* ------------------------------------------------------------------------------------------------ rendering is bounded *)
Lemma tdepth_block b : tdepth (TBlock b) = S (ldepth b).
Proof. reflexivity. Qed.
Lemma tdepth_for k b : tdepth (TFor k b) = S (ldepth b).
Proof. reflexivity. Qed.
Lemma tdepth_call b : tdepth (TCall b) = S (ldepth b).
Proof. reflexivity. Qed.

Lemma ldepth_in x ns : In x ns -> tdepth x <= ldepth ns.
Proof. induction ns as [|y r IH]; simpl; [tauto|]. intros [->|H]; [lia|]. specialize (IH H). lia. Qed.

Lemma lddepth_nth ld k body : nth_error ld k = Some body -> ldepth body <= lddepth ld.
Proof.
  revert k. induction ld as [|t r IH]; intros [|k]; simpl; try discriminate.
  - intros H; inversion H; subst. lia.
  - intros H. specialize (IH _ H). lia.
Qed.

Lemma mu_for lim sz cd : mu lim (S sz) cd <= mu lim sz cd.
Proof. unfold mu. lia. Qed.
Lemma mu_include lim sz cd : S sz <= lim -> mu lim (S (S sz)) cd + 1 <= mu lim sz cd.
Proof. unfold mu. lia. Qed.
Lemma mu_copy lim sz sz' cd : cd <= lim -> mu lim sz' (S cd) + 1 <= mu lim sz cd.
Proof.
  intros H. unfold mu. replace (lim + 2 - cd) with (S (lim + 2 - S cd)) by lia. rewrite Nat.mul_succ_l. lia.
Qed.

(* step_cases records cost <= kmax c at every step; only exec_peak reads it *)
Definition kmax (c : costs) : nat :=
  Nat.max (fr_block c) (Nat.max (fr_for c) (Nat.max (fr_include c) (Nat.max (fr_render c) (Nat.max (fr_call c) (fr_leaf c))))).

(* kmax bounds every cost: walk down the chain of maxima *)
Lemma kmax_ge c :
  fr_block c <= kmax c /\ fr_for c <= kmax c /\ fr_include c <= kmax c /\ fr_render c <= kmax c /\ fr_call c <= kmax c /\ fr_leaf c <= kmax c.
Proof.
  unfold kmax. repeat split; repeat first [apply Nat.le_max_l | etransitivity; [|apply Nat.le_max_r]]; apply le_n.
Qed.

Section Bounded.
  Variables (lax : bool) (lim : nat) (c : costs) (ld : loader).
  Let D := lddepth ld.
  (* recursion depth (fuel of exec), not Python frames *)
  Definition need (sz cd : nat) (d : nat) : nat := d + 1 + (D + 2) * mu lim sz cd.

  Lemma need_mono sz cd sz' cd' d d' extra :
    d' + extra <= d + (D + 2) * mu lim sz cd - (D + 2) * mu lim sz' cd' ->
    (D + 2) * mu lim sz' cd' <= (D + 2) * mu lim sz cd ->
    need sz' cd' d' + extra <= need sz cd d.
  Proof. unfold need. lia. Qed.

  (* the two ways down: into the body of a node of the same template, where the nesting depth falls, and into another
     template, where mu falls and pays for that template's whole depth *)
  Lemma need_child sz cd sz' cd' n body x :
    tdepth n = S (ldepth body) -> In x body -> mu lim sz' cd' <= mu lim sz cd -> need sz' cd' (tdepth x) + 1 <= need sz cd (tdepth n).
  Proof.
    intros -> Hx Hm. pose proof (ldepth_in _ _ Hx). pose proof (Nat.mul_le_mono_l _ _ (D + 2) Hm). unfold need. lia.
  Qed.

  Lemma need_partial sz cd sz' cd' d name body x :
    nth_error ld name = Some body -> In x body -> mu lim sz' cd' + 1 <= mu lim sz cd -> need sz' cd' (tdepth x) + 1 <= need sz cd d.
  Proof.
    intros En Hx Hm. pose proof (ldepth_in _ _ Hx). pose proof (lddepth_nth _ _ _ En). fold D in H0.
    pose proof (Nat.mul_le_mono_l _ _ (D + 2) Hm) as Hm'. rewrite Nat.mul_add_distr_l, Nat.mul_1_r in Hm'. unfold need. lia.
  Qed.

  Lemma need_top name body x : nth_error ld name = Some body -> In x body -> need (S initial_scope) 0 (tdepth x) <= fuel_bound lim ld.
  Proof.
    intros En Hx. pose proof (ldepth_in _ _ Hx). pose proof (lddepth_nth _ _ _ En). fold D in H0.
    assert (Hm : mu lim (S initial_scope) 0 <= mu lim 0 0) by (unfold mu; lia). pose proof (Nat.mul_le_mono_l _ _ (D + 2) Hm).
    unfold need, fuel_bound. fold D. rewrite Nat.mul_add_distr_l. lia.
  Qed.

  Lemma andthen_some a k : a <> None -> (k tt <> None) -> andthen a k <> None.
  Proof.
    unfold andthen. destruct a as [x|]; [|congruence]. intros _ Hk. destruct (raised x); [discriminate|].
    destruct (k tt); [discriminate|congruence].
  Qed.

  (* how a node runs its children *)
  Inductive runs (ex : nat -> nat -> nat -> tnode -> option out) (sz cd fr : nat) (body : list tnode) : option out -> Prop :=
  | R_blk : runs ex sz cd fr body (blk ex sz cd fr body)
  | R_iter k : runs ex sz cd fr body (iter ex k sz cd fr body)
  | R_top : runs ex sz cd fr body (top lax ex sz cd fr body).

  (* all three are built from the empty run, andthen and (at top level) handle_top: what these keep and every child
     has, the whole run has *)
  Lemma runs_from_children (P : option out -> Prop) ex sz cd fr body r :
    P (Some (ok 0 0)) -> (forall a k, P a -> P (k tt) -> P (andthen a k)) -> (forall a, P a -> P (option_map (handle_top lax) a)) ->
    (forall x, In x body -> P (ex sz cd fr x)) -> runs ex sz cd fr body r -> P r.
  Proof.
    intros H0 Hand Htop Hx.
    assert (Hblk : P (blk ex sz cd fr body)).
    { induction body as [|x ns IH]; cbn [blk]; [exact H0|].
      apply Hand; [apply Hx; left; reflexivity|apply IH; intros y Hy; apply Hx; right; exact Hy]. }
    intros [|k|].
    - exact Hblk.
    - induction k as [|k IH]; cbn [iter]; [exact H0|]. apply Hand; [exact Hblk|exact IH].
    - clear Hblk. induction body as [|x ns IH]; cbn [top]; [exact H0|].
      apply Hand; [apply Htop, Hx; left; reflexivity|apply IH; intros y Hy; apply Hx; right; exact Hy].
  Qed.

  Lemma runs_some ex sz cd fr body r : runs ex sz cd fr body r -> (forall x, In x body -> ex sz cd fr x <> None) -> r <> None.
  Proof.
    intros Hr Hx. revert Hr. apply (runs_from_children (fun r => r <> None)); [discriminate|apply andthen_some| |exact Hx].
    intros [a|] Ha; [discriminate|exact Ha].
  Qed.

  (* one step of the interpreter: it stops at a limit or a missing template, writes a character, or runs the children of the
     node -- which stand one level down in the measure, with at most kmax c frames more in use *)
  Lemma step_cases ex sz cd fr n :
    (exists e, step lax lim c ld ex sz cd fr n = Some (fail e)) \/
    (exists cost, cost <= kmax c /\ step lax lim c ld ex sz cd fr n = Some (ok 1 (fr + cost))) \/
    (exists sz' cd' cost body, runs ex sz' cd' (fr + cost) body (step lax lim c ld ex sz cd fr n) /\ cost <= kmax c /\
       forall x, In x body -> need sz' cd' (tdepth x) + 1 <= need sz cd (tdepth n)).
  Proof.
    pose proof (kmax_ge c) as (Kblock & Kfor & Kinclude & Krender & Kcall & Kleaf).
    unfold step. destruct n as [|body|k body|name|name|body].
    - right; left. eauto.
    - right; right. exists sz, cd, (fr_block c), body. split; [constructor|split; [exact Kblock|]].
      intros x Hx. apply need_child with (body := body); auto.
    - destruct (Nat.ltb lim sz); [left; eauto|]. right; right. exists (S sz), cd, (fr_for c), body. split; [constructor|split; [exact Kfor|]].
      intros x Hx. apply need_child with (body := body); auto using mu_for.
    - destruct (Nat.ltb 0 cd); [left; eauto|].
      destruct (nth_error ld name) as [body|] eqn:En; [|left; eauto].
      destruct (Nat.ltb lim sz); [left; eauto|]. unfold rwc.
      destruct (Nat.ltb lim (S sz)) eqn:E2; [left; eauto|]. apply Nat.ltb_ge in E2.
      right; right. exists (S (S sz)), cd, (fr_include c), body. split; [constructor|split; [exact Kinclude|]].
      intros x Hx. apply need_partial with (name := name) (body := body); auto using mu_include.
    - destruct (nth_error ld name) as [body|] eqn:En; [|left; eauto].
      destruct (Nat.ltb lim cd) eqn:E1; [left; eauto|]. apply Nat.ltb_ge in E1. unfold rwc.
      destruct (Nat.ltb lim initial_scope); [left; eauto|].
      right; right. exists (S initial_scope), (S cd), (fr_render c), body. split; [constructor|split; [exact Krender|]].
      intros x Hx. apply need_partial with (name := name) (body := body); auto.
      apply mu_copy, E1.
    - destruct (Nat.ltb lim cd) eqn:E1; [left; eauto|]. apply Nat.ltb_ge in E1.
      right; right. exists initial_scope, (S cd), (fr_call c), body. split; [constructor|split; [exact Kcall|]].
      intros x Hx. apply need_child with (body := body); auto.
      pose proof (mu_copy lim sz initial_scope cd E1). lia.
  Qed.

  (* the interpreter never needs more recursion depth than [need]: it is cut off by the depth limits *)
  Lemma exec_total : forall f sz cd fr n, need sz cd (tdepth n) <= f -> exec lax lim c ld f sz cd fr n <> None.
  Proof.
    induction f as [|f IH]; intros sz cd fr n Hf; [unfold need in Hf; lia|]. simpl.
    destruct (step_cases (exec lax lim c ld f) sz cd fr n) as [(e & ->)|[(cost & _ & ->)|(sz' & cd' & cost & body & Hr & _ & Hn)]];
      try discriminate.
    apply (runs_some _ _ _ _ _ _ Hr). intros x Hx. apply IH. specialize (Hn x Hx). lia.
  Qed.

  Theorem render_bounded name : render_template lax lim c ld (fuel_bound lim ld) name <> None.
  Proof.
    unfold render_template. destruct (nth_error ld name) as [body|] eqn:En; [|discriminate].
    unfold rwc. destruct (Nat.ltb lim initial_scope); [discriminate|].
    apply (runs_some _ _ _ _ _ _ (R_top _ _ _ _ _)). intros x Hx. apply exec_total. exact (need_top _ _ _ En Hx).
  Qed.
End Bounded.

(* ------------------------------------------------------------------------------------------------ recursion is cut off *)
(* a call that can only end by running out of fuel or by raising ContextDepthError *)
Definition cut (r : option out) : Prop := match r with None => True | Some o => raised o = Some EContextDepth end.

Lemma cut_andthen1 a k : cut a -> cut (andthen a k).
Proof. unfold andthen. destruct a as [x|]; simpl; auto. intros H. rewrite H. exact H. Qed.

Lemma cut_andthen2 x k : raised x = None -> cut (k tt) -> cut (andthen (Some x) k).
Proof. unfold andthen. intros ->. destruct (k tt); simpl; auto. Qed.

Lemma handle_top_strict a : handle_top false a = a.
Proof. unfold handle_top. destruct (raised a); reflexivity. Qed.

Lemma option_map_handle_strict r : option_map (handle_top false) r = r.
Proof. destruct r; simpl; [rewrite handle_top_strict|]; reflexivity. Qed.

Section Cut.
  Variables (lim : nat) (c : costs) (k : rkind) (d copies : nat).
  Local Notation ld := (self_family k d (S copies)).
  Local Notation body := (TText :: nest d (repeat (rtag k) (S copies))).
  Local Notation ex := (exec false lim c ld).
  (* the states the family can reach: an include family never copies the context *)
  Definition reach (cd : nat) : Prop := k = KInclude -> cd = 0.

  Lemma ld_body : nth_error ld 0 = Some body.
  Proof. reflexivity. Qed.

  (* the nested blocks around the recursive tag pass the cut on *)
  Lemma blk_nest_cut : forall dd f sz cd fr,
    (forall f' fr', f' <= f -> cut (ex f' sz cd fr' (rtag k))) -> cut (blk (ex f) sz cd fr (nest dd (repeat (rtag k) (S copies)))).
  Proof.
    induction dd as [|dd IH]; intros f sz cd fr H; simpl.
    - apply cut_andthen1. apply H. lia.
    - apply cut_andthen1. destruct f as [|f]; [exact I|]. simpl. apply IH. intros f' fr' Hf. apply H. lia.
  Qed.

  Lemma top_nest_cut dd0 f sz cd fr :
    (forall f' fr', f' <= f -> cut (ex f' sz cd fr' (rtag k))) -> cut (top false (ex f) sz cd fr (nest dd0 (repeat (rtag k) (S copies)))).
  Proof.
    intros H. destruct dd0 as [|dd]; simpl; rewrite option_map_handle_strict; apply cut_andthen1.
    - apply H. lia.
    - destruct f as [|f]; [exact I|]. simpl. apply blk_nest_cut. intros f' fr' Hf. apply H. lia.
  Qed.

  Lemma top_body_cut f sz cd fr :
    (forall f' fr', f' <= f -> cut (ex f' sz cd fr' (rtag k))) -> cut (top false (ex f) sz cd fr body).
  Proof.
    intros H. cbn [top]. rewrite option_map_handle_strict.
    assert (E : ex f sz cd fr TText = None \/ exists p, ex f sz cd fr TText = Some (ok 1 p)) by (destruct f; simpl; eauto).
    destruct E as [-> | (p & ->)]; [exact I|]. apply cut_andthen2; [reflexivity|]. apply top_nest_cut. exact H.
  Qed.

  (* the recursive tag itself, at any scope size and any reachable copy depth *)
  Lemma rtag_cut : forall f sz cd fr, reach cd -> cut (ex f sz cd fr (rtag k)).
  Proof.
    induction f as [f IH] using lt_wf_ind. intros sz cd fr Hr. destruct f as [|f]; [exact I|].
    unfold reach in Hr. assert (Hk : k = KInclude \/ k = KRender) by (clear; destruct k; auto).
    destruct Hk as [Ek|Ek].
    - replace (rtag k) with (TInclude 0) by (rewrite Ek; reflexivity). cbn [exec step].
      rewrite (Hr Ek). change (Nat.ltb 0 0) with false. cbv iota. rewrite ld_body. destruct (Nat.ltb lim sz); [exact (eq_refl _)|]. unfold rwc.
      destruct (Nat.ltb lim (S sz)); [exact (eq_refl _)|]. apply top_body_cut. intros f' fr' Hf. apply IH; [lia|]. intros _. reflexivity.
    - replace (rtag k) with (TRender 0) by (rewrite Ek; reflexivity). cbn [exec step].
      rewrite ld_body. destruct (Nat.ltb lim cd); [exact (eq_refl _)|]. unfold rwc.
      destruct (Nat.ltb lim initial_scope); [exact (eq_refl _)|]. apply top_body_cut. intros f' fr' Hf. apply IH; [lia|].
      intros E. rewrite Ek in E. discriminate.
  Qed.
End Cut.

(* ------------------------------------------------------------------------------------------------ the extends chain *)
Lemma nmem_in x l : nmem x l = true <-> In x l.
Proof.
  induction l as [|y r IH]; simpl; [split; [discriminate|tauto]|].
  rewrite orb_true_iff, IH, Nat.eqb_eq. split; intros [H|H]; auto.
Qed.

Lemma bounded_nodup_length (l : list nat) n : NoDup l -> (forall x, In x l -> x < n) -> List.length l <= n.
Proof.
  intros Hn Hb. rewrite <- (seq_length n 0). apply NoDup_incl_length; auto.
  intros x Hx. apply in_seq. specialize (Hb x Hx). lia.
Qed.

Lemma extends_chain_total parent : forall f seen cur,
  NoDup seen -> (forall x, In x seen -> x < List.length parent) -> List.length parent < f + List.length seen ->
  extends_chain f parent seen cur <> OutOfFuel.
Proof.
  induction f as [|f IH]; intros seen cur Hn Hb Hf.
  - pose proof (bounded_nodup_length _ _ Hn Hb). simpl in Hf. lia.
  - simpl. destruct (nth_error parent cur) as [[p|]|]; try discriminate.
    destruct (nmem p seen) eqn:Em; [discriminate|].
    destruct (nth_error parent p) eqn:Ep; [|discriminate].
    assert (Hp : p < List.length parent) by (apply nth_error_Some; congruence).
    apply IH.
    + constructor; auto. intros Hin. apply nmem_in in Hin. congruence.
    + intros x [<-|Hx]; auto.
    + simpl. lia.
Qed.

(* ... in a template without an extends tag, or in one of two errors *)
Lemma extends_chain_result parent : forall f seen cur b,
  extends_chain f parent seen cur = Ok b -> nth_error parent b = Some None.
Proof.
  induction f as [|f IH]; intros seen cur b; simpl; [discriminate|].
  destruct (nth_error parent cur) as [[p|]|] eqn:E; try discriminate.
  - destruct (nmem p seen); [discriminate|]. destruct (nth_error parent p); [|discriminate]. apply IH.
  - intros H; inversion H; subst. exact E.
Qed.

Lemma extends_chain_errors parent : forall f seen cur e,
  extends_chain f parent seen cur = Err e -> e = EInherit \/ e = ENotFound.
Proof.
  induction f as [|f IH]; intros seen cur e; simpl; [discriminate|].
  destruct (nth_error parent cur) as [[p|]|]; try discriminate.
  - destruct (nmem p seen); [intros H; inversion H; auto|]. destruct (nth_error parent p); [apply IH|intros H; inversion H; auto].
  - intros H; inversion H; auto.
Qed.

(* ------------------------------------------------------------------------------------------------ lax mode: the work doubles per level *)
Definition lax_texts (lim copies : nat) (k : rkind) : option N :=
  let ld := self_family k 0 copies in
  match render_template true lim cpython_sync ld (fuel_bound lim ld) 0 with
  | Some o => match raised o with None => Some (texts o) | Some _ => None end
  | None => None
  end.

(* a run that, unless it runs out of fuel, ends without an exception after n characters *)
Definition wrote (n : N) (r : option out) : Prop :=
  match r with None => True | Some o => raised o = None /\ texts o = n end.

Lemma wrote_andthen a b x k : wrote a x -> wrote b (k tt) -> wrote (a + b) (andthen x k).
Proof.
  unfold andthen. destruct x as [x|]; simpl; [|auto]. intros [-> <-].
  destruct (k tt) as [y|]; simpl; [|auto]. intros [-> <-]. split; reflexivity.
Qed.

Section LaxWork.
  Variables (lim : nat) (c : costs).
  Hypothesis Hlim : initial_scope <= lim.
  Local Notation ld := (self_family KRender 0 2).
  Local Notation body := [TText; TRender 0; TRender 0].
  Local Notation ex := (exec true lim c ld).
  (* the render tag as the loop of render_with_context sees it: a depth error is dropped there *)
  Local Notation rtag_top f sz cd fr := (option_map (handle_top true) (ex f sz cd fr (TRender 0))).

  Lemma top_body_work n f sz cd fr : wrote n (rtag_top f sz cd fr) -> wrote (1 + (n + (n + 0))) (top true (ex f) sz cd fr body).
  Proof.
    intros H. cbn [top]. apply wrote_andthen; [destruct f; simpl; auto|].
    apply wrote_andthen; [exact H|]. apply wrote_andthen; [exact H|]. simpl. auto.
  Qed.

  (* with k levels left before the copy-depth limit cuts it off the tag does 2^k - 1 units of work: none at the limit,
     and each level renders the level below twice after a character of its own *)
  Lemma rtag_work : forall k f sz cd fr, cd + k = lim + 1 -> wrote (2 ^ N.of_nat k - 1) (rtag_top f sz cd fr).
  Proof.
    induction k as [|k IH]; intros f sz cd fr Hk; (destruct f as [|f]; [exact I|]); cbn [exec step nth_error self_family nest repeat rtag].
    - replace (Nat.ltb lim cd) with true by (symmetry; apply Nat.ltb_lt; lia). simpl. auto.
    - replace (Nat.ltb lim cd) with false by (symmetry; apply Nat.ltb_ge; lia). unfold rwc.
      replace (Nat.ltb lim initial_scope) with false by (symmetry; apply Nat.ltb_ge; exact Hlim).
      pose proof (top_body_work _ f (S initial_scope) (S cd) (fr + fr_render c) (IH f (S initial_scope) (S cd) (fr + fr_render c) ltac:(lia))) as H.
      rewrite Nat2N.inj_succ, N.pow_succ_r'. pose proof (N.pow_nonzero 2 (N.of_nat k) ltac:(discriminate)).
      replace (2 * 2 ^ N.of_nat k - 1)%N with (1 + (2 ^ N.of_nat k - 1 + (2 ^ N.of_nat k - 1 + 0)))%N by lia.
      destruct (top true (ex f) (S initial_scope) (S cd) (fr + fr_render c) body) as [o|]; [|exact I].
      destruct H as [Hr Ht]. unfold handle_top. simpl. rewrite Hr. auto.
  Qed.
End LaxWork.

(* a template that renders itself twice writes 2^(limit + 2) - 1 characters *)
Theorem lax_work_exponential lim : initial_scope <= lim -> lax_texts lim 2 KRender = Some (2 ^ (N.of_nat lim + 2) - 1)%N.
Proof.
  intros Hlim. unfold lax_texts. pose proof (render_bounded true lim cpython_sync (self_family KRender 0 2) 0) as Hb.
  unfold render_template, rwc in *. cbn [nth_error self_family nest repeat rtag] in *.
  replace (Nat.ltb lim initial_scope) with false in * by (symmetry; apply Nat.ltb_ge; exact Hlim).
  pose proof (top_body_work lim cpython_sync _ (fuel_bound lim (self_family KRender 0 2)) (S initial_scope) 0 (fr_base cpython_sync)
                (rtag_work lim cpython_sync Hlim (lim + 1) _ _ 0 _ eq_refl)) as H.
  cbn [self_family nest repeat rtag] in H.
  destruct (top true _ _ _ _ _) as [o|]; [|congruence]. destruct H as [-> ->].
  replace (N.of_nat lim + 2)%N with (N.succ (N.of_nat (lim + 1))) by lia. rewrite N.pow_succ_r'.
  pose proof (N.pow_nonzero 2 (N.of_nat (lim + 1)) ltac:(discriminate)). f_equal. lia.
Qed.

(* ------------------------------------------------------------------------------------------------ the frames are bounded by the limits *)
Lemma andthen_peak a k B :
  (forall x, a = Some x -> peak x <= B) -> (forall y, k tt = Some y -> peak y <= B) -> forall o, andthen a k = Some o -> peak o <= B.
Proof.
  unfold andthen. intros Ha Hk o. destruct a as [x|]; [|discriminate]. specialize (Ha x eq_refl).
  destruct (raised x); [intros H; inversion H; subst; auto|].
  destruct (k tt) as [y|] eqn:E; [|discriminate]. specialize (Hk y eq_refl). intros H; inversion H; subst. simpl. lia.
Qed.

(* one level down: its frames are paid for by one unit of the recursion depth *)
Lemma frames_step K fr cost p n' n : cost <= K -> n' + 1 <= n -> p <= (fr + cost) + K * n' -> p <= fr + K * n.
Proof.
  intros Hc Hn Hp. pose proof (Nat.mul_le_mono_l _ _ K Hn) as H. rewrite Nat.mul_add_distr_l, Nat.mul_1_r in H. lia.
Qed.

Section StackBound.
  Variables (lax : bool) (lim : nat) (c : costs) (ld : loader).

  Lemma runs_peak ex sz cd fr B body r :
    runs lax ex sz cd fr body r -> (forall x o, In x body -> ex sz cd fr x = Some o -> peak o <= B) ->
    forall o, r = Some o -> peak o <= B.
  Proof.
    intros Hr Hx. revert Hr. apply (runs_from_children lax (fun r => forall o, r = Some o -> peak o <= B)).
    - intros o E. inversion E. apply Nat.le_0_l.
    - intros a k. apply andthen_peak.
    - intros [a|] Ha o E; [|discriminate]. injection E as <-. specialize (Ha a eq_refl).
      unfold handle_top. destruct (raised a) as [e|]; [destruct (lax && is_liquid e)|]; exact Ha.
    - intros x Hin o. apply Hx, Hin.
  Qed.

  (* every character is written with at most  fr + kmax c * need  frames in use, where need is the recursion depth bound *)
  Lemma exec_peak : forall f sz cd fr n o,
    exec lax lim c ld f sz cd fr n = Some o -> peak o <= fr + kmax c * need lim ld sz cd (tdepth n).
  Proof.
    induction f as [|f IH]; intros sz cd fr n o; [discriminate|]. simpl.
    destruct (step_cases lax lim c ld (exec lax lim c ld f) sz cd fr n)
      as [(e & ->)|[(cost & Hc & ->)|(sz' & cd' & cost & body & Hr & Hc & Hn)]]; intros E.
    - inversion E. simpl. lia.
    - inversion E. simpl. apply (frames_step _ fr cost _ 0 _ Hc); unfold need; lia.
    - apply (runs_peak _ _ _ _ _ _ _ Hr) with (o := o); [|exact E].
      intros x o' Hx E'. exact (frames_step _ fr cost _ _ _ Hc (Hn x Hx) (IH _ _ _ _ _ E')).
  Qed.
End StackBound.

(* ------------------------------------------------------------------------------------------------ the Python stack *)
(* the frames a template needs that includes itself from inside 15 nested if blocks, under the default limit of 30 and the
   frame costs measured on CPython: more than the recursion limit provides *)
Lemma frames_include_15 : frames_needed cpython_sync 30 KInclude 15 = 1021.
Proof. vm_compute. reflexivity. Qed.
