(* C01 -- proofs about PairLoad.v, and the theorem about histories of requests against ONE caching loader that mix
   get_template and get_template_async (over the model of the caching mixin, CachingLoader.v of C23). *)
From Coq Require Import String List.
From LiquidVerif Require Import Prelude Lru PairLoad.
From LiquidVerif Require CachingLoader CachingLoader_Proofs.
Import ListNotations.
Local Open Scope list_scope.

(* every loader tree (choice loaders nested to any depth), every name *)
Theorem get_source_async_eq : forall l name, get_source_async l name = get_source_sync l name.
Proof.
  (* the two recursive definitions have the same body: the copies are the same text up to the awaits *)
  intros l name. reflexivity.
Qed.

Theorem load_async_eq e l name g : load_async e l name g = load_sync e l name g.
Proof. unfold load_async, load_sync. rewrite get_source_async_eq. reflexivity. Qed.

(* Environment.get_template_async returns the template get_template returns -- name, path, source, globals, matter --
   or fails with the same error, for every environment, loader tree, name and globals argument *)
Theorem get_template_async_eq e name g : get_template_async e name g = get_template_sync e name g.
Proof. unfold get_template_async, get_template_sync. apply load_async_eq. Qed.

Theorem analyze_tags_async_eq e name : analyze_tags_async e name = analyze_tags_sync e name.
Proof. unfold analyze_tags_async, analyze_tags_sync. rewrite get_source_async_eq. reflexivity. Qed.

(* a copy of the ChoiceLoader loop that does not go on after the first loader is told apart *)
Theorem choice_first_only_refuted :
  exists ls name, choice_first_only get_source_async ls name <> get_source_sync (LChoice ls) name.
Proof.
  exists [LDict []; LDict [(llit "p", 1%N)]], (llit "p"). vm_compute. discriminate.
Qed.

(* what both copies hand to from_string *)
Lemma alookup_dset x k (v : N) d :
  alookup x (dset k v d) = if str_eqb x k then Some v else alookup x d.
Proof.
  induction d as [|[k' v'] r IH]; cbn [dset alookup].
  - destruct (str_eqb x k); reflexivity.
  - destruct (str_eqb_spec k k') as [->|Hn]; cbn [alookup].
    + destruct (str_eqb x k'); reflexivity.
    + rewrite IH. destruct (str_eqb_spec x k') as [->|Hx].
      * destruct (str_eqb_spec k' k) as [->|_]; [congruence|reflexivity].
      * reflexivity.
Qed.

Lemma alookup_app {V} x (a b : list (str * V)) :
  alookup x (a ++ b) = match alookup x a with Some v => Some v | None => alookup x b end.
Proof. induction a as [|[k v] r IH]; cbn; [reflexivity|]. destruct (str_eqb x k); [reflexivity|exact IH]. Qed.

(* {**a, **b}: a key of b answers with its LAST entry in b, any other key with a *)
Lemma alookup_dmerge x b : forall a,
  alookup x (dmerge a b) = match alookup x (rev b) with Some v => Some v | None => alookup x a end.
Proof.
  unfold dmerge. induction b as [|[k v] r IH]; intro a; cbn [fold_left rev fst snd]; [reflexivity|].
  rewrite IH, alookup_app, alookup_dset. cbn [alookup].
  destruct (alookup x (rev r)); [reflexivity|]. destruct (str_eqb x k); reflexivity.
Qed.

(* Environment.make_globals: the globals argument wins over the environment's globals *)
Theorem make_globals_lookup e g x :
  alookup x (make_globals e g) =
  match g with
  | Some d => match alookup x (rev d) with Some v => Some v | None => alookup x (e_globals e) end
  | None => alookup x (e_globals e)
  end.
Proof.
  destruct g as [[|kv r]|]; cbn [make_globals]; try reflexivity. apply alookup_dmerge.
Qed.

(* what a variable resolves to when a loaded template is rendered: render arguments, then the source's front matter,
   then the template's globals -- the same record through both APIs by get_template_async_eq *)
Theorem resolve_order t args x :
  resolve t args x = match alookup x args with
                     | Some v => Some v
                     | None => match alookup x (t_matter t) with Some v => Some v | None => alookup x (t_globals t) end
                     end.
Proof. reflexivity. Qed.

(* the name of a loaded template is the last component of its path, whichever API loaded it *)
Theorem loaded_name e name g t :
  get_template_async e name g = Ok t -> t_name t = basename (t_path t).
Proof.
  unfold get_template_async, load_async. intro H. apply bind_ok in H. destruct H as (s & _ & H).
  unfold from_string in H. destruct (existsb _ _); [discriminate|]. inversion H. reflexivity.
Qed.

Module CL := CachingLoader.
Module CLP := CachingLoader_Proofs.

(* the same request made through the synchronous API *)
Definition sync_get (g : CL.get) : CL.get :=
  {| CL.g_mode := CL.Sync; CL.g_name := CL.g_name g; CL.g_kw := CL.g_kw g; CL.g_ctx := CL.g_ctx g;
     CL.g_globals := CL.g_globals g |}.
Definition sync_req (r : CL.request) : CL.request :=
  match r with CL.Get g => CL.Get (sync_get g) | r => r end.

Section Mix.
  Variable c : CL.config.
  (* get_source_async hands out a plain callable as the up-to-date check (true of every built-in loader since the
     repair of FileSystemLoader.get_source_async) *)
  Hypothesis Haw : CL.awaitable_uptodate c = false.

  (* no template object handed out so far carries an awaitable up-to-date check *)
  Definition plain_heap (s : CL.state) : Prop := Forall (fun it => CL.t_awaitable (snd it) = false) (CL.st_heap s).

  Lemma plain_hget s id t : plain_heap s -> CL.hget id (CL.st_heap s) = Some t -> CL.t_awaitable t = false.
  Proof. intros Hp Hg. apply CLP.hget_In in Hg. exact (proj1 (Forall_forall _ _) Hp _ Hg). Qed.

  Lemma base_load_mode st m name kw ctx gl :
    CL.base_load CL.fixed c st m name kw ctx gl = CL.base_load CL.fixed c st CL.Sync name kw ctx gl.
  Proof. unfold CL.base_load. destruct (CL.slookup _ st); [|reflexivity]. destruct m; cbn; rewrite ?Haw; reflexivity. Qed.

  Lemma base_load_plain st m name kw ctx gl t :
    CL.base_load CL.fixed c st m name kw ctx gl = Ok t -> CL.t_awaitable t = false.
  Proof.
    unfold CL.base_load. destruct (CL.slookup _ st); [|discriminate]. intro H. inversion H. destruct m; cbn; auto.
  Qed.

  Lemma check_cache_async_plain s key gl load :
    plain_heap s -> (forall t, load tt = Ok t -> CL.t_awaitable t = false) ->
    plain_heap (fst (CL.check_cache_async CL.fixed c s key gl load)).
  Proof.
    intros Hp Hl. unfold CL.check_cache_async.
    destruct (Lru.do_get (CL.st_cache s) (CL.enc key)) as [cache1 [id|]].
    - destruct (CL.hget id (CL.st_heap s)) as [cached|] eqn:Hg; [|exact Hp].
      assert (Hc : CL.t_awaitable cached = false) by exact (plain_hget _ _ _ Hp Hg).
      destruct (if CL.auto_reload c then CL.up_to_date c (CL.st_store s) cached else Ok true) as [[|]|e|]; cbn [fst].
      + cbn [CL.fixed CL.v_hit_mutates]. destruct (CL.same_globals _ _); cbn [fst]; constructor; auto.
      + destruct (load tt) as [t|e|] eqn:El; cbn [fst]; try exact Hp. constructor; [apply Hl; reflexivity|exact Hp].
      + exact Hp.
      + exact Hp.
    - destruct (load tt) as [t|e|] eqn:El; cbn [fst]; try exact Hp. constructor; [apply Hl; reflexivity|exact Hp].
  Qed.

  (* one request: the asynchronous API does what the synchronous one does, and leaves a heap of the same kind *)
  Lemma step_sync s r :
    plain_heap s ->
    CL.step CL.fixed c s r = CL.step CL.fixed c s (sync_req r) /\ plain_heap (fst (CL.step CL.fixed c s r)).
  Proof.
    intro Hp. destruct r as [g|name ns|name ns]; cbn [sync_req CL.step]; [|split; [reflexivity|exact Hp] ..].
    assert (E : CL.mixin_load_async CL.fixed c s g = CL.mixin_load CL.fixed c s g).
    { unfold CL.mixin_load_async, CL.mixin_load. cbn [CL.fixed CL.v_async_swap].
      rewrite CLP.check_cache_sync_async.
      - apply CLP.cca_ext. apply base_load_mode.
      - intros cache1 id t _ Hg. exact (plain_hget _ _ _ Hp Hg). }
    assert (Hpa : plain_heap (fst (CL.mixin_load_async CL.fixed c s g))).
    { unfold CL.mixin_load_async. cbn [CL.fixed CL.v_async_swap]. apply check_cache_async_plain; [exact Hp|].
      intros t Ht. eapply base_load_plain; exact Ht. }
    cbn [sync_get CL.g_mode]. destruct (CL.g_mode g).
    - split; [reflexivity|]. rewrite <- E. exact Hpa.
    - split; [exact E|exact Hpa].
  Qed.

  Lemma run_sync rs : forall s, plain_heap s -> CL.run CL.fixed c s rs = CL.run CL.fixed c s (map sync_req rs).
  Proof.
    induction rs as [|r rs IH]; intros s Hp; [reflexivity|]. cbn [map CL.run].
    destruct (step_sync s r Hp) as [E Hp']. rewrite <- E.
    destruct (CL.step CL.fixed c s r) as [s' o]. cbn [fst] in Hp'. rewrite (IH s' Hp'). reflexivity.
  Qed.

  (* Two histories of requests against one caching loader -- loads, edits and deletions of sources in between -- that
     differ only in WHICH API each load goes through return the same sequence of templates and errors: cache hits,
     misses, reloads after an edit, evictions and copies bound to other globals do not depend on which API filled or
     read the cache. *)
  Theorem api_mix_irrelevant st rs rs' :
    map sync_req rs = map sync_req rs' ->
    CL.run CL.fixed c (CL.init c st) rs = CL.run CL.fixed c (CL.init c st) rs'.
  Proof.
    intro E. rewrite (run_sync rs), (run_sync rs'), E; [reflexivity| |]; constructor.
  Qed.
End Mix.

(* without the hypothesis (FileSystemLoader.get_source_async as found: an awaitable up-to-date check): a template cached
   through get_template_async makes the next get_template fail, where two synchronous calls succeed *)
Definition mix_cfg : CL.config :=
  {| CL.nk := []; CL.auto_reload := true; CL.capacity := 10; CL.aware := false; CL.detects := true;
     CL.awaitable_uptodate := true; CL.missing_raises := false; CL.env_g := 0%N |}.
Definition mix_get (m : CL.mode) : CL.request :=
  CL.Get {| CL.g_mode := m; CL.g_name := llit "a"; CL.g_kw := None; CL.g_ctx := None; CL.g_globals := 0%N |}.
Definition mix_store : CL.store := [((llit "a", None), (1%N, true))].

Definition mix_run (a b : CL.mode) : list CL.response :=
  CL.run CL.fixed mix_cfg (CL.init mix_cfg mix_store) [mix_get a; mix_get b].

Theorem api_mix_awaitable_refuted :
  mix_run CL.Async CL.Sync <> mix_run CL.Sync CL.Sync /\
  nth_error (mix_run CL.Async CL.Sync) 1 = Some (CL.RE ELiquid).
Proof. split; [vm_compute; discriminate | vm_compute; reflexivity]. Qed.
