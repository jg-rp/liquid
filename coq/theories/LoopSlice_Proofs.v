(* What Props/C13.v is proved from: the reference loop as an index window and _slice as that window clamped into the
   list; what a loop expression evaluates to and stores; the row / column arithmetic of tablerow; and a for or tablerow
   loop around a probe body, written as a function (fcells, tcells) of what the body prints and signals per item. *)
From LiquidVerif Require Import Prelude PyPrims LoopSlice.
From Coq Require Import ZifyBool.
Local Open Scope list_scope.

Lemma to_nat_succ z : (1 <= z)%Z -> Z.to_nat z = S (Z.to_nat (z - 1)).
Proof. intro H. rewrite <- Z2Nat.inj_succ by lia. f_equal. lia. Qed.

(* The reference loop keeps the items whose index lies in the window [from, to).  Nothing is clamped here:
   Z.to_nat of a negative bound is 0, and firstn / skipn stop at the end of the list by themselves. *)
Lemma spec_each_window {A} (items : list A) : forall idx from to,
  spec_each items idx from to =
  skipn (Z.to_nat (from - idx)) (match to with Some t => firstn (Z.to_nat (t - idx)) items | None => items end).
Proof.
  induction items as [|x r IH]; intros idx from to.
  - destruct to; cbn [spec_each]; rewrite ?firstn_nil, skipn_nil; reflexivity.
  - assert (Hskip : forall l, (if (from <=? idx)%Z then [x] else []) ++ skipn (Z.to_nat (from - (idx + 1))) l
                              = skipn (Z.to_nat (from - idx)) (x :: l)).
    { intro l. destruct (Z.leb_spec from idx) as [Hf|Hf].
      - replace (Z.to_nat (from - idx)) with O by lia. replace (Z.to_nat (from - (idx + 1))) with O by lia. reflexivity.
      - rewrite (to_nat_succ (from - idx)) by lia. cbn [skipn app]. rewrite Z.sub_add_distr. reflexivity. }
    cbn [spec_each]. destruct to as [t|].
    + destruct (Z.leb_spec t idx) as [Ht|Ht].
      * replace (Z.to_nat (t - idx)) with O by lia. symmetry. apply skipn_nil.
      * rewrite IH, Hskip, (to_nat_succ (t - idx)) by lia. cbn [firstn]. rewrite Z.sub_add_distr. reflexivity.
    + rewrite IH. apply Hskip.
Qed.

Lemma to_nat_clamp a n : Z.to_nat (Z.min (Z.max a 0) (Z.of_nat n)) = Nat.min (Z.to_nat a) n.
Proof. rewrite Z2Nat.inj_min, Z2Nat.inj_max, Nat2Z.id. cbn [Z.to_nat]. rewrite Nat.max_0_r. reflexivity. Qed.

Lemma clamp_nonneg a n : (0 <= Z.min (Z.max a 0) (Z.of_nat n))%Z.
Proof. apply Z.min_glb; [apply Z.le_max_r|apply Nat2Z.is_nonneg]. Qed.

Lemma skipn_min {A} k n (l : list A) : length l <= n -> skipn (Nat.min k n) l = skipn k l.
Proof.
  intro Hl. destruct (Nat.min_spec k n) as [[_ ->]|[Hk ->]]; [reflexivity|].
  rewrite !skipn_all2; [reflexivity|lia|exact Hl].
Qed.

(* Clamping both ends of a window into the list, as _slice does, selects the same items. *)
Lemma zslice_clamped {A} (l : list A) a b :
  zslice l (Z.min (Z.max a 0) (zlen l)) (Z.min (Z.max b 0) (zlen l)) = skipn (Z.to_nat a) (firstn (Z.to_nat b) l).
Proof.
  unfold zslice, zlen. rewrite Z2Nat.inj_sub by apply clamp_nonneg. rewrite !to_nat_clamp.
  rewrite <- skipn_firstn_comm, <- firstn_firstn, firstn_all.
  apply skipn_min. rewrite firstn_length. apply Nat.le_min_r.
Qed.

Lemma zslice_clamped_end {A} (l : list A) a :
  zslice l (Z.min (Z.max a 0) (zlen l)) (zlen l) = skipn (Z.to_nat a) l.
Proof.
  unfold zslice, zlen. rewrite Z2Nat.inj_sub by apply clamp_nonneg. rewrite to_nat_clamp, Nat2Z.id.
  rewrite <- skipn_length, firstn_all. apply skipn_min, le_n.
Qed.

Lemma zslice_length {A} (l : list A) a b :
  (0 <= a)%Z -> (b <= zlen l)%Z -> zlen (zslice l a b) = Z.max (b - a) 0.
Proof.
  unfold zslice, zlen. intros Ha Hb. rewrite firstn_length, skipn_length.
  destruct (Z.le_gt_cases b a) as [H|H].
  - rewrite Z.max_r by lia. replace (Z.to_nat (b - a)) with O by lia. reflexivity.
  - rewrite Z.max_l, Nat.min_l by lia. lia.
Qed.

(* the separately computed length handed to the loop helper is the number of items visited *)
Theorem length_is_visited_count {A} (items : list A) stored limit offset cont rev :
  let '(seg, length_, _) := visit items stored limit offset cont rev in
  length_ = zlen seg.
Proof.
  unfold visit, slice_bounds.
  set (start := slice_start stored offset cont).
  assert (Hl : (0 <= zlen items)%Z) by (unfold zlen; lia).
  assert (Hrev : forall s : list A, zlen (if rev then List.rev s else s) = zlen s).
  { intro s. destruct rev; [unfold zlen; rewrite rev_length|]; reflexivity. }
  rewrite Hrev. destruct limit as [l|]; rewrite zslice_length; lia.
Qed.

(* the stored continue index: where the reference stopped, clamped into the collection *)
Theorem stored_index {A} (items : list A) stored limit offset cont rev :
  snd (visit items stored limit offset cont rev) =
  match limit with
  | None => zlen items
  | Some l => Z.min (Z.max (l + slice_start stored offset cont) 0) (zlen items)
  end.
Proof. unfold visit, slice_bounds. destruct limit; reflexivity. Qed.

Lemma firstn_plus {A} (l : list A) : forall n m, firstn (n + m) l = firstn n l ++ firstn m (skipn n l).
Proof.
  induction l as [|x l IH]; intros [|n] m; simpl; try reflexivity.
  - rewrite firstn_nil. reflexivity.
  - f_equal. apply IH.
Qed.

Lemma skipn_plus {A} (l : list A) : forall n m, skipn m (skipn n l) = skipn (n + m) l.
Proof.
  induction l as [|x l IH]; intros [|n] m; simpl; try reflexivity.
  - apply skipn_nil.
  - apply IH.
Qed.

Lemma zslice_app {A} (l : list A) a b c :
  (0 <= a <= b)%Z -> (b <= c)%Z -> zslice l a b ++ zslice l b c = zslice l a c.
Proof.
  unfold zslice. intros Hab Hbc.
  replace (c - a)%Z with ((b - a) + (c - b))%Z by ring. rewrite Z2Nat.inj_add by lia.
  rewrite firstn_plus. f_equal. rewrite skipn_plus, <- Z2Nat.inj_add by lia. do 3 f_equal. ring.
Qed.

Lemma sget_sset k v m : sget k (sset k v m) = v.
Proof. unfold sset. cbn [sget]. rewrite N.eqb_refl. reflexivity. Qed.

Lemma sget_sset_other k k' v m : k <> k' -> sget k (sset k' v m) = sget k m.
Proof. intro H. unfold sset. cbn [sget]. destruct (N.eqb_spec k k'); [contradiction|reflexivity]. Qed.

(* every loop expression -- the for tag and the tablerow tag evaluate the same one -- leaves the index where it
   stopped under its key; a later loop over the key with offset:continue starts there *)
Theorem eval_loop_spec sq l st seg n st1 : eval_loop sq l st = Ok (seg, n, st1) ->
  exists lim off cont,
    match llimit l with None => lim = None | Some a => to_int_arg a = Ok (match lim with Some z => z | None => 0%Z end) /\ lim <> None end /\
    match loffset l with
    | OffNone => off = None /\ cont = false
    | OffContinue => off = None /\ cont = true
    | OffArg a => cont = false /\ exists z, to_int_arg a = Ok z /\ off = Some z
    end /\
    visit (iter_items sq (liter l)) (sget (lkey l) st) lim off cont (lrev l) = (seg, n, sget (lkey l) st1) /\
    st1 = sset (lkey l) (sget (lkey l) st1) st.
Proof.
  unfold eval_loop. intro He.
  apply bind_ok in He as (lim & El & He). apply bind_ok in He as ([off cont] & Eo & He). cbn [fst snd] in He.
  destruct (visit _ _ _ _ _ _) as [[sg ln] stp] eqn:Ev. injection He as <- <- <-.
  exists lim, off, cont. rewrite sget_sset. split; [|split; [|split; [exact Ev|reflexivity]]].
  - destruct (llimit l) as [a|]; [|injection El as <-; reflexivity].
    destruct (to_int_arg a) as [z| |]; try discriminate. injection El as <-. split; [reflexivity|discriminate].
  - destruct (loffset l) as [| |b].
    + injection Eo as <- <-. split; reflexivity.
    + injection Eo as <- <-. split; reflexivity.
    + destruct (to_int_arg b) as [z| |]; try discriminate. injection Eo as <- <-.
      split; [reflexivity|exists z; split; reflexivity].
Qed.

Lemma eval_loop_length sq (l : loopx) st seg n st1 :
  eval_loop sq l st = Ok (seg, n, st1) -> n = zlen seg.
Proof.
  intro He. destruct (eval_loop_spec _ _ _ _ _ _ He) as (lim & off & cont & _ & _ & Ev & _).
  pose proof (length_is_visited_count (iter_items sq (liter l)) (sget (lkey l) st) lim off cont (lrev l)) as H.
  rewrite Ev in H. exact H.
Qed.

(* tablerow with cols = c > 0: the cells fill the rows from left to right, c to a row *)
Lemma tr_invariant c : (0 < c)%Z -> forall k : nat,
  let s := tr_steps c (S k) tr_init in
  tr_index s = Z.of_nat k /\ (1 <= tr_col s <= c)%Z /\ (1 <= tr_row s)%Z /\
  Z.of_nat k = ((tr_row s - 1) * c + (tr_col s - 1))%Z.
Proof.
  intros Hc. induction k as [|k IH]; cbn zeta.
  - cbn [tr_steps]. unfold tr_step, tr_init. cbn [tr_col tr_index tr_row].
    cbn [Z.add Z.eqb negb andb Z.opp Z.pos_sub]. cbn [tr_col tr_index tr_row]. repeat split; lia.
  - cbn zeta in IH. destruct IH as (Hi & Hcol & Hrow & Hk).
    change (tr_steps c (S (S k)) tr_init) with (tr_step c (tr_steps c (S k) tr_init)).
    set (s := tr_steps c (S k) tr_init) in *.
    unfold tr_step. replace (tr_index s + 1 =? 0)%Z with false by lia. cbn [negb andb].
    destruct (Z.eqb_spec (tr_col s) c) as [E|E]; cbn [tr_col tr_index tr_row].
    + repeat split; try lia; rewrite Nat2Z.inj_succ, Hk, E; ring.
    + repeat split; try lia; rewrite Nat2Z.inj_succ, Hk; ring.
Qed.

(* the probe line of every item of a for loop, in order, the k-th with the helper values of position k out of n *)
Fixpoint printed (items : list str) (k n : Z) : str :=
  match items with
  | [] => []
  | x :: r => print_for x (forloop_at k n) ++ printed r (k + 1) n
  end.

Definition fframe (name : str) (x : str) (k n : Z) : frame :=
  {| f_kind := KFor; f_item := x; f_h := forloop_at k n; f_tr := dummy_tr; f_ncols := 0; f_name := name |}.
Definition tframe (x : str) (k n : Z) (t' : trstate) (ncols : Z) : frame :=
  {| f_kind := KTable; f_item := x; f_h := forloop_at k n; f_tr := t'; f_ncols := ncols; f_name := [] |}.

(* what a for loop writes when the body, run for the k-th item, writes [out] and ends with signal [sigf]:
   the outputs in order, up to and including the first item whose body breaks *)
Fixpoint fcells (out : frame -> str) (sigf : frame -> signal) (name : str) (items : list str) (k n : Z) : str :=
  match items with
  | [] => []
  | x :: r =>
      let f := fframe name x k n in
      out f ++ match sigf f with SBreak => [] | _ => fcells out sigf name r (k + 1) n end
  end.

Lemma for_iter_general run fs name n out sigf :
  (forall x k st, run (fframe name x k n :: fs) st = Ok (out (fframe name x k n), st, sigf (fframe name x k n))) ->
  forall items k st acc, for_iter run fs name n items k st acc = Ok (acc ++ fcells out sigf name items k n, st, SNormal).
Proof.
  intros Hrun. induction items as [|x r IH]; intros k st acc.
  - cbn. rewrite app_nil_r. reflexivity.
  - cbn [fcells for_iter]. fold (fframe name x k n). rewrite Hrun. cbn [bind]. fold (for_iter run fs name n).
    destruct (sigf (fframe name x k n)); try (rewrite IH, <- app_assoc; reflexivity).
    rewrite app_nil_r. reflexivity.
Qed.

(* the same for tablerow: every cell is opened and closed, a row break follows the last column unless the item is
   the last one, and a break takes effect only after the cell (and its row break) is written *)
Fixpoint tcells (out : frame -> str) (sigf : frame -> signal) (items : list str) (k : Z) (t : trstate) (n ncols : Z) : str :=
  match items with
  | [] => []
  | x :: r =>
      let t' := tr_step ncols t in
      let f := tframe x k n t' ncols in
      td_open (tr_col t') ++ out f ++ td_close ++
      (if ((tr_col t' =? ncols)%Z && negb (h_last (forloop_at k n)))%bool then row_break (tr_row t' + 1) else []) ++
      match sigf f with SBreak => [] | _ => tcells out sigf r (k + 1) t' n ncols end
  end.

Lemma table_iter_general run fs n ncols out sigf :
  (forall x k t' st, run (tframe x k n t' ncols :: fs) st = Ok (out (tframe x k n t' ncols), st, sigf (tframe x k n t' ncols))) ->
  forall items k t st acc, table_iter run fs n ncols items k t st acc = Ok (acc ++ tcells out sigf items k t n ncols, st).
Proof.
  intros Hrun. induction items as [|x r IH]; intros k t st acc.
  - cbn. rewrite app_nil_r. reflexivity.
  - cbn [tcells table_iter]. fold (tframe x k n (tr_step ncols t) ncols). rewrite Hrun. cbn [bind].
    fold (table_iter run fs n ncols).
    destruct (sigf (tframe x k n (tr_step ncols t) ncols)).
    + rewrite IH, <- !app_assoc. reflexivity.
    + rewrite app_nil_r, <- !app_assoc. reflexivity.
    + rewrite IH, <- !app_assoc. reflexivity.
Qed.

(* the probe bodies *)
Definition leaf_print (f : frame) : str :=
  match f_kind f with
  | KFor => print_for (f_item f) (f_h f)
  | KTable => print_table (f_item f) (f_h f) (f_tr f) (f_ncols f)
  end.
Definition no_sig (f : frame) : signal := SNormal.
Definition break_at (j : Z) (f : frame) : signal := if (h_index (f_h f) =? j)%Z then SBreak else SNormal.
Definition continue_at (j : Z) (f : frame) : signal := if (h_index (f_h f) =? j)%Z then SContinue else SNormal.
Definition print_unless (j : Z) (f : frame) : str := if (h_index (f_h f) =? j)%Z then [] else leaf_print f.

Lemma exec_leaf_print sq dis fuel f fs st :
  exec sq dis (S (S fuel)) (f :: fs) st [BPrint] = Ok (leaf_print f, st, no_sig f).
Proof. cbn [exec exec_leaf bind]. rewrite app_nil_r. reflexivity. Qed.

Lemma exec_print_break sq dis fuel f fs st j :
  exec sq dis (S (S (S fuel))) (f :: fs) st [BPrint; BBreakAt j] = Ok (leaf_print f, st, break_at j f).
Proof.
  cbn [exec exec_leaf bind]. unfold break_at. destruct (h_index (f_h f) =? j)%Z; cbn [bind app]; rewrite ?app_nil_r; reflexivity.
Qed.

Lemma exec_continue_print sq dis fuel f fs st j :
  exec sq dis (S (S (S fuel))) (f :: fs) st [BContinueAt j; BPrint] = Ok (print_unless j f, st, continue_at j f).
Proof.
  cbn [exec exec_leaf bind]. unfold print_unless, continue_at. destruct (h_index (f_h f) =? j)%Z; cbn [bind app]; rewrite ?app_nil_r; reflexivity.
Qed.

(* a for loop around a probe body: evaluation of the loop expression, then the cells *)
Lemma exec_for_general sq dis fuel (l : loopx) body els fs st seg n st1 out sigf :
  eval_loop sq l st = Ok (seg, n, st1) -> n <> 0%Z ->
  (forall x k st0, exec sq dis (S fuel) (fframe (lname l) x k n :: fs) st0 body =
                   Ok (out (fframe (lname l) x k n), st0, sigf (fframe (lname l) x k n))) ->
  exec sq dis (S (S fuel)) fs st [BFor l body els] = Ok (fcells out sigf (lname l) seg 0 n, st1, SNormal).
Proof.
  intros He Hn Hrun. remember (S fuel) as f1 eqn:Ef. cbn [exec]. rewrite He. cbn [bind].
  destruct (Z.eqb_spec n 0) as [|_]; [contradiction|].
  rewrite (for_iter_general _ fs (lname l) n out sigf Hrun). cbn [bind app].
  rewrite Ef. cbn [exec bind]. rewrite app_nil_r. reflexivity.
Qed.

Lemma exec_table_general sq dis fuel (l : loopx) cols body fs st seg n st1 ncols out sigf :
  eval_loop sq l st = Ok (seg, n, st1) ->
  match cols with None => Ok n | Some a => int_or_zero a end = Ok ncols ->
  (forall x k t' st0, exec sq dis (S fuel) (tframe x k n t' ncols :: fs) st0 body =
                      Ok (out (tframe x k n t' ncols), st0, sigf (tframe x k n t' ncols))) ->
  exec sq dis (S (S fuel)) fs st [BTablerow l cols body] =
  Ok (table_head ++ tcells out sigf seg 0 tr_init n ncols ++ table_foot, st1, SNormal).
Proof.
  intros He Hc Hrun. remember (S fuel) as f1 eqn:Ef. cbn [exec]. rewrite He. cbn [bind]. rewrite Hc. cbn [bind].
  rewrite (table_iter_general _ fs n ncols out sigf Hrun). cbn [bind app].
  rewrite Ef. cbn [exec bind]. rewrite app_nil_r. reflexivity.
Qed.

(* break after the j-th item: exactly the first j items are written, with the helper values of the WHOLE loop *)
Lemma fcells_break_prefix out name j n : forall items k, (k + 1 <= j)%Z ->
  fcells out (break_at j) name items k n = fcells out no_sig name (firstn (Z.to_nat (j - k)) items) k n.
Proof.
  induction items as [|x r IH]; intros k Hk.
  - rewrite firstn_nil. reflexivity.
  - rewrite (to_nat_succ (j - k)) by lia. cbn [firstn fcells].
    unfold break_at at 1, no_sig at 1. cbn [fframe f_h forloop_at h_index].
    destruct (Z.eqb_spec (k + 1) j) as [E|E].
    + replace (Z.to_nat (j - k - 1)) with O by lia. reflexivity.
    + rewrite IH by lia. rewrite Z.sub_add_distr. reflexivity.
Qed.

Lemma tcells_break_prefix out j n ncols : forall items k t, (k + 1 <= j)%Z ->
  tcells out (break_at j) items k t n ncols = tcells out no_sig (firstn (Z.to_nat (j - k)) items) k t n ncols.
Proof.
  induction items as [|x r IH]; intros k t Hk.
  - rewrite firstn_nil. reflexivity.
  - rewrite (to_nat_succ (j - k)) by lia. cbn [firstn tcells].
    unfold break_at at 1, no_sig at 1. cbn [tframe f_h forloop_at h_index].
    destruct (Z.eqb_spec (k + 1) j) as [E|E].
    + replace (Z.to_nat (j - k - 1)) with O by lia. reflexivity.
    + rewrite IH by lia. rewrite Z.sub_add_distr. reflexivity.
Qed.

(* a continue never ends the loop *)
Lemma fcells_continue out name j : forall items k n,
  fcells out (continue_at j) name items k n = fcells out no_sig name items k n.
Proof.
  induction items as [|x r IH]; intros k n; [reflexivity|].
  cbn [fcells]. rewrite IH. unfold continue_at, no_sig. destruct (h_index _ =? j)%Z; reflexivity.
Qed.

Lemma tcells_continue out j : forall items k t n ncols,
  tcells out (continue_at j) items k t n ncols = tcells out no_sig items k t n ncols.
Proof.
  induction items as [|x r IH]; intros k t n ncols; [reflexivity|].
  cbn [tcells]. rewrite IH. unfold continue_at, no_sig. destruct (h_index _ =? j)%Z; reflexivity.
Qed.

(* without interrupts the for loop writes the probe line of every visited item *)
Lemma fcells_printed name : forall items k n, fcells leaf_print no_sig name items k n = printed items k n.
Proof. induction items as [|x r IH]; intros k n; [reflexivity|]. cbn [fcells printed no_sig]. rewrite IH. reflexivity. Qed.

(* the loop stack: a for loop pushes its frame, a tablerow does not *)
Lemma for_frames_for f fs : f_kind f = KFor -> for_frames (f :: fs) = f :: for_frames fs.
Proof. intro H. unfold for_frames. cbn [filter]. rewrite H. reflexivity. Qed.
Lemma for_frames_table f fs : f_kind f = KTable -> for_frames (f :: fs) = for_frames fs.
Proof. intro H. unfold for_frames. cbn [filter]. rewrite H. reflexivity. Qed.

(* render: the partial runs with an empty loop stack and no continue positions, whatever the caller's are, and
   leaves the caller's continue positions as they were *)
Theorem render_is_isolated sq dis fuel fs st b :
  exec sq dis (S (S fuel)) fs st [BRender b] =
  match exec sq true (S fuel) [] [] b with
  | Ok (out, _, SNormal) => Ok (out ++ [], st, SNormal)
  | Ok (_, _, _) => Err ESyntax
  | Err e => Err e
  | OutOfFuel => OutOfFuel
  end.
Proof.
  remember (S fuel) as f1 eqn:Ef. cbn [exec].
  destruct (exec sq true f1 [] [] b) as [[[out st'] sg]|e|]; cbn [bind]; try reflexivity.
  destruct sg; try reflexivity. rewrite Ef. cbn [exec bind]. reflexivity.
Qed.
