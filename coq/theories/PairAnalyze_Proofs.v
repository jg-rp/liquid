(* C01 -- proofs about PairAnalyze.v: the synchronous walk over generators and the asynchronous walk over awaited lists
   append the same entries in the same order, load the same templates in the same order (failed loads included) and end
   the same way; neither loads anything when include_partials is false; each goes through its own API only; and a copy
   that awaits the children of a partial before looking it up in `seen` is told apart. *)
From Coq Require Import String List.
From LiquidVerif Require Import Prelude PairAnalyze.
Import ListNotations.
Local Open Scope list_scope.

Definition wtr {A} (r : wout A * wstate * list wev) : list wev := snd r.

(* laws of the monad, pointwise in the state *)
Lemma wbind_assoc {A B C} (m : W A) (f : A -> W B) (g : B -> W C) st :
  wbind (wbind m f) g st = wbind m (fun a => wbind (f a) g) st.
Proof.
  unfold wbind. destruct (m st) as [[o s1] t1]. destruct o as [a|e|]; try reflexivity.
  destruct (f a s1) as [[o2 s2] t2]. destruct o2 as [b|e|]; try reflexivity.
  destruct (g b s2) as [[o3 s3] t3]. rewrite app_assoc. reflexivity.
Qed.

Lemma wbind_ret_l {A B} (a : A) (f : A -> W B) st : wbind (wret a) f st = f a st.
Proof. unfold wbind, wret. destruct (f a st) as [[o s] t]. reflexivity. Qed.

Lemma wbind_ext {A B} (m : W A) (f g : A -> W B) st : (forall a st', f a st' = g a st') -> wbind m f st = wbind m g st.
Proof. intro H. unfold wbind. destruct (m st) as [[o s1] t1]. destruct o; try reflexivity. rewrite H. reflexivity. Qed.

(* for child in <iterable>: the first next() of the iterable, then the loop over its items *)
Lemma for_gen_assoc w ip inst n (b : N -> anode -> W unit) (k : W unit) st :
  (doW g <- children_sync ip inst n; doW _ <- for_gen w inst g b; k) st =
  (doW l <- (doW g <- children_sync ip inst n; gen_items w inst g); doW _ <- for_list (b (snd l)) (fst l); k) st.
Proof. rewrite wbind_assoc. apply wbind_ext. intros g st'. unfold for_gen. apply wbind_assoc. Qed.

(* from every state the two computations end the same way, leave the same state and emit the same events up to the API
   mark of the loads *)
Definition WRel {A} (m1 m2 : W A) : Prop := forall st, werase_run (m1 st) = werase_run (m2 st).

Lemma WRel_refl {A} (m : W A) : WRel m m.
Proof. intro st. reflexivity. Qed.

Lemma WRel_bind {A B} (m1 m2 : W A) (f1 f2 : A -> W B) :
  WRel m1 m2 -> (forall a, WRel (f1 a) (f2 a)) -> WRel (wbind m1 f1) (wbind m2 f2).
Proof.
  intros Hm Hf st. unfold wbind. specialize (Hm st).
  destruct (m1 st) as [[o1 s1] t1]. destruct (m2 st) as [[o2 s2] t2].
  cbn [werase_run] in Hm. inversion Hm; subst.
  destruct o2 as [a|e|]; cbn [werase_run]; try congruence.
  specialize (Hf a s2). destruct (f1 a s2) as [[r1 s1'] t1']. destruct (f2 a s2) as [[r2 s2'] t2'].
  cbn [werase_run] in *. inversion Hf; subst. unfold werase in *. rewrite !map_app. congruence.
Qed.

Lemma WRel_ext_l {A} (m1 m1' m2 : W A) : (forall st, m1 st = m1' st) -> WRel m1' m2 -> WRel m1 m2.
Proof. intros E H st. rewrite E. apply H. Qed.

Lemma for_list_rel {A} (f1 f2 : A -> W unit) l : (forall a, WRel (f1 a) (f2 a)) -> WRel (for_list f1 l) (for_list f2 l).
Proof.
  intro H. induction l as [|a r IH]; cbn [for_list]; [apply WRel_refl|]. apply WRel_bind; [apply H|]. intro. exact IH.
Qed.

Section Agree.
  Variable w : aworld.
  (* the loader does not tell the APIs apart: true of the built-in loaders (PairLoad: get_source_async_eq) *)
  Hypothesis Hld : forall n, aw_ld w AAsync n = aw_ld w ASync n.

  Lemma aload_rel name : WRel (aload w ASync name) (aload w AAsync name).
  Proof. intro st. unfold aload. rewrite Hld. destruct (aw_ld w ASync name); reflexivity. Qed.

  (* creating the iterable and taking its items, against awaiting children_async *)
  Lemma children_rel ip inst n :
    WRel (doW g <- children_sync ip inst n; gen_items w inst g) (children_async w ip inst n).
  Proof.
    destruct n as [i vs|i x|i x b|i nm b|i nm b|i name args|i name args|i sn args|i name];
      cbn [children_sync children_async]; try apply WRel_refl.
    (* include, render, extends: creating the generator runs nothing; its first item loads if include_partials *)
    all: apply WRel_ext_l with (m1' := gen_items w inst (if ip then GLoad name else GNodes []));
      [intro st; apply wbind_ret_l|]; destruct ip; cbn [gen_items]; [apply aload_rel|apply WRel_refl].
  Qed.

  (* the loop over a generator against the loop over the awaited list *)
  Lemma loop_rel ip inst n (b1 b2 : N -> anode -> W unit) (k : W unit) :
    (forall i a, WRel (b1 i a) (b2 i a)) ->
    WRel (doW g <- children_sync ip inst n; doW _ <- for_gen w inst g b1; k)
         (doW l <- children_async w ip inst n; doW _ <- for_list (b2 (snd l)) (fst l); k).
  Proof.
    intro H. eapply WRel_ext_l; [intro st; apply for_gen_assoc|].
    apply WRel_bind; [apply children_rel|]. intro l. apply WRel_bind; [|intro; apply WRel_refl].
    apply for_list_rel. intro a. apply H.
  Qed.

  Lemma visit_rel : forall fuel ip jg tn inst n, WRel (visit_sync fuel w ip jg tn inst n) (visit_async fuel w ip jg tn inst n).
  Proof.
    induction fuel as [|f IH]; intros ip jg tn inst n; cbn [visit_sync visit_async]; [apply WRel_refl|].
    apply WRel_bind; [apply WRel_refl|]. intro.
    apply WRel_bind; [apply WRel_refl|]. intro.
    apply WRel_bind; [apply WRel_refl|]. intro.
    apply WRel_bind; [apply WRel_refl|]. intro.
    destruct (node_partial n) as [p|].
    - apply WRel_bind.
      + destruct (is_empty (p_name p)); [|apply WRel_refl].
        eapply WRel_ext_l; [intro; symmetry; apply wbind_assoc|].
        apply WRel_bind; [apply children_rel|]. intro. apply WRel_refl.
      + intro sname. apply WRel_bind; [apply WRel_refl|]. intro st.
        destruct (existsb _ _); [apply WRel_refl|].
        apply WRel_bind; [apply WRel_refl|]. intro.
        apply WRel_bind; [apply WRel_refl|]. intro.
        apply loop_rel. intros ? ?. apply IH.
    - apply WRel_bind; [apply WRel_refl|]. intro.
      apply loop_rel. intros ? ?. apply IH.
  Qed.

  (* BoundTemplate.analyze_async against analyze: for every template, include_partials flag and state of the walk the
     same entries are appended to tags / variables / globals / locals in the same order, the same templates are loaded
     in the same order -- a template that is not found ends both walks at the same point with TemplateNotFoundError --
     and the same static-context bindings and `seen` map are left behind. *)
  Theorem analyze_async_eq fuel ip name t st :
    werase_run (analyze_async fuel w ip name t st) = werase_run (analyze_sync fuel w ip name t st).
  Proof.
    symmetry. apply (for_list_rel (visit_sync fuel w ip false name 0) (visit_async fuel w ip false name 0)).
    intro a. apply visit_rel.
  Qed.
End Agree.

Definition WAll {A} (Q : wev -> Prop) (m : W A) : Prop := forall st, Forall Q (wtr (m st)).

Lemma WAll_bind {A B} (Q : wev -> Prop) (m : W A) (f : A -> W B) : WAll Q m -> (forall a, WAll Q (f a)) -> WAll Q (wbind m f).
Proof.
  intros Hm Hf st. unfold wbind. specialize (Hm st). destruct (m st) as [[o s1] t1]. cbn [wtr snd] in Hm.
  destruct o as [a|e|]; cbn [wtr snd]; try assumption.
  specialize (Hf a s1). destruct (f a s1) as [[r s2] t2]. cbn [wtr snd] in *. apply Forall_app. split; assumption.
Qed.
Lemma WAll_ext {A} (Q : wev -> Prop) (m m' : W A) : (forall st, m st = m' st) -> WAll Q m' -> WAll Q m.
Proof. intros E H st. rewrite E. apply H. Qed.
Lemma WAll_emit (Q : wev -> Prop) e : Q e -> WAll Q (wemit e).  Proof. intros H st. repeat constructor. exact H. Qed.
(* wret, wfail, wfuel, wget, wput, wmod *)
Lemma WAll_silent {A} (Q : wev -> Prop) (m : W A) : (forall st, wtr (m st) = []) -> WAll Q m.
Proof. intros H st. rewrite H. constructor. Qed.
Lemma WAll_for {A} (Q : wev -> Prop) (f : A -> W unit) l : (forall a, WAll Q (f a)) -> WAll Q (for_list f l).
Proof.
  intro H. induction l; cbn [for_list]; [apply WAll_silent; reflexivity|]. apply WAll_bind; [apply H|]. intro. assumption.
Qed.

Ltac wleaf := apply WAll_silent; reflexivity.

Definition not_load (e : wev) : Prop := match e with WLoad _ _ _ => False | _ => True end.

Section Events.
  Variable w : aworld.
  Variable Q : wev -> Prop.
  Hypothesis Qnl : forall e, not_load e -> Q e.

  Lemma record_var_all jg tn id x : WAll Q (record_var jg tn id x).
  Proof.
    unfold record_var. apply WAll_bind.
    - destruct jg; [wleaf|]. apply WAll_emit, Qnl. exact I.
    - intro. apply WAll_bind; [wleaf|]. intro st. destruct (sc_mem _ _); [wleaf|]. apply WAll_emit, Qnl. exact I.
  Qed.
  Lemma record_local_all tn id x : WAll Q (record_local tn id x).
  Proof. unfold record_local. apply WAll_bind; [wleaf|]. intro. apply WAll_emit, Qnl. exact I. Qed.

  Lemma aload_all m name : (forall f, Q (WLoad m name f)) -> WAll Q (aload w m name).
  Proof.
    intro H. unfold aload. destruct (aw_ld w m name); (apply WAll_bind; [apply WAll_emit, H|]); intro; [|wleaf].
    apply WAll_bind; [wleaf|]. intro. apply WAll_bind; [wleaf|]. intro. wleaf.
  Qed.
  Lemma resolve_all s : WAll Q (resolve_snippet s).
  Proof. unfold resolve_snippet. apply WAll_bind; [wleaf|]. intro. wleaf. Qed.

  (* the first next() of the iterable children() returns: a node that is not a partial never loads, the others through
     the synchronous API and only when include_partials *)
  Lemma children_items_all ip inst n :
    (node_partial n <> None -> ip = true -> forall name f, Q (WLoad ASync name f)) ->
    WAll Q (doW g <- children_sync ip inst n; gen_items w inst g).
  Proof.
    intro H. destruct n; cbn [children_sync].
    5: { (* snippet: children() binds the snippet, then returns an empty iterable *)
         eapply WAll_ext; [intro; apply wbind_assoc|]. apply WAll_bind; [wleaf|]. intro.
         eapply WAll_ext; [intro; apply wbind_ret_l|]. wleaf. }
    (* the others return their iterable at once: a list, a snippet to resolve, or (include, render, extends) a load *)
    all: (eapply WAll_ext; [intro; apply wbind_ret_l|]); try wleaf; try apply resolve_all.
    all: destruct ip; cbn [gen_items]; [|wleaf]; apply aload_all, H; [discriminate|reflexivity].
  Qed.

  Lemma children_async_all ip inst n :
    (ip = true -> forall name f, Q (WLoad AAsync name f)) -> WAll Q (children_async w ip inst n).
  Proof.
    intros H.
    destruct n; cbn [children_async]; try apply resolve_all;
      try (destruct ip; [apply aload_all, H; reflexivity|wleaf]);
      (* Node.children_async returns what children() returns *)
      apply children_items_all; intros []; reflexivity.
  Qed.

  Lemma visit_sync_all ip : (ip = true -> forall name f, Q (WLoad ASync name f)) ->
    forall fuel jg tn inst n, WAll Q (visit_sync fuel w ip jg tn inst n).
  Proof.
    intro Qs. induction fuel as [|f IH]; intros jg tn inst n; cbn [visit_sync]; [wleaf|].
    apply WAll_bind; [destruct (_ && _); wleaf|]. intro.
    apply WAll_bind; [destruct jg; [wleaf|apply WAll_emit, Qnl; exact I]|]. intro.
    apply WAll_bind; [apply WAll_for; intro; apply record_var_all|]. intro.
    apply WAll_bind; [apply WAll_for; intro; apply record_local_all|]. intro.
    assert (Hc : WAll Q (doW g <- children_sync ip inst n; gen_items w inst g)) by (apply children_items_all; intro; exact Qs).
    assert (L : forall jg' tn' (k : W unit), WAll Q k ->
                WAll Q (doW g <- children_sync ip inst n; doW _ <- for_gen w inst g (visit_sync f w ip jg' tn'); k)).
    { intros jg' tn' k Hk. eapply WAll_ext; [intro; apply for_gen_assoc|].
      apply WAll_bind; [exact Hc|]. intro l. apply WAll_bind; [|intro; exact Hk]. apply WAll_for. intro. apply IH. }
    destruct (node_partial n) as [p|].
    - apply WAll_bind.
      + destruct (is_empty (p_name p)); [|wleaf].
        eapply WAll_ext; [intro; symmetry; apply wbind_assoc|]. apply WAll_bind; [exact Hc|]. intro. wleaf.
      + intro sn. apply WAll_bind; [wleaf|]. intro st. destruct (existsb _ _); [wleaf|].
        apply WAll_bind; [wleaf|]. intro. apply WAll_bind; [wleaf|]. intro. apply L. wleaf.
    - apply WAll_bind; [wleaf|]. intro. apply L. wleaf.
  Qed.

  Lemma visit_async_all ip : (ip = true -> forall name f, Q (WLoad AAsync name f)) ->
    forall fuel jg tn inst n, WAll Q (visit_async fuel w ip jg tn inst n).
  Proof.
    intro Qa. induction fuel as [|f IH]; intros jg tn inst n; cbn [visit_async]; [wleaf|].
    apply WAll_bind; [destruct (_ && _); wleaf|]. intro.
    apply WAll_bind; [destruct jg; [wleaf|apply WAll_emit, Qnl; exact I]|]. intro.
    apply WAll_bind; [apply WAll_for; intro; apply record_var_all|]. intro.
    apply WAll_bind; [apply WAll_for; intro; apply record_local_all|]. intro.
    assert (L : forall jg' tn' (k : W unit), WAll Q k ->
                WAll Q (doW l <- children_async w ip inst n; doW _ <- for_list (visit_async f w ip jg' tn' (snd l)) (fst l); k)).
    { intros jg' tn' k Hk. apply WAll_bind; [apply children_async_all, Qa|]. intro l.
      apply WAll_bind; [|intro; exact Hk]. apply WAll_for. intro. apply IH. }
    destruct (node_partial n) as [p|].
    - apply WAll_bind.
      + destruct (is_empty (p_name p)); [|wleaf].
        apply WAll_bind; [apply children_async_all, Qa|]. intro. wleaf.
      + intro sn. apply WAll_bind; [wleaf|]. intro st. destruct (existsb _ _); [wleaf|].
        apply WAll_bind; [wleaf|]. intro. apply WAll_bind; [wleaf|]. intro. apply L. wleaf.
    - apply WAll_bind; [wleaf|]. intro. apply L. wleaf.
  Qed.
End Events.

(* include_partials=False: neither walk loads a template -- inline snippets are still visited *)
Theorem no_partials_no_loads fuel w name t st :
  Forall not_load (wtr (analyze_sync fuel w false name t st)) /\ Forall not_load (wtr (analyze_async fuel w false name t st)).
Proof.
  split.
  - unfold analyze_sync. apply WAll_for. intro. apply visit_sync_all; [auto|discriminate].
  - unfold analyze_async. apply WAll_for. intro. apply visit_async_all; [auto|discriminate].
Qed.

(* each walk reaches the loader through its own API only, whatever it visits *)
Definition loads_through (m : amode) (e : wev) : Prop := match e with WLoad m' _ _ => m' = m | _ => True end.
Theorem walk_modes fuel w ip name t st :
  Forall (loads_through ASync) (wtr (analyze_sync fuel w ip name t st)) /\
  Forall (loads_through AAsync) (wtr (analyze_async fuel w ip name t st)).
Proof.
  split.
  - unfold analyze_sync. apply WAll_for. intro. apply visit_sync_all; [intros [] H; try exact I; destruct H|reflexivity].
  - unfold analyze_async. apply WAll_for. intro. apply visit_async_all; [intros [] H; try exact I; destruct H|reflexivity].
Qed.

(* {% include 'p' %}{% include 'p' %} : the second include is found in `seen` with the same key and names in scope *)
Definition wit_root : list anode := [AInclude 1 (alit "p") []; AInclude 2 (alit "p") []].
Definition wit_aw : aworld := {| aw_ld := fun _ n => alookup n [(alit "p", [AProbe 3 [alit "g"]])]; aw_addr := by_position |}.
Definition analyze_eager (fuel : nat) (w : aworld) (ip : bool) (name : str) (t : list anode) : W unit :=
  for_list (visit_async_eager fuel w ip false name 0) t.

(* the walks load p once; a copy that awaits the children before the lookup in `seen` loads it twice *)
Theorem eager_children_refuted :
  ao_loads (aobserve (analyze_async 10 wit_aw true (alit "root") wit_root ws0)) = [(AAsync, alit "p", true)] /\
  ao_loads (aobserve (analyze_sync 10 wit_aw true (alit "root") wit_root ws0)) = [(ASync, alit "p", true)] /\
  werase_run (analyze_eager 10 wit_aw true (alit "root") wit_root ws0) <>
  werase_run (analyze_sync 10 wit_aw true (alit "root") wit_root ws0).
Proof. split; [|split]; vm_compute; try reflexivity. discriminate. Qed.

(* a template that is not found ends both walks at the same point: what came before is reported by both *)
Example not_found_example :
  let t := [AProbe 1 [alit "g"]; AInclude 2 (alit "nosuch") []; AProbe 3 [alit "g"]] in
  aobserve (analyze_sync 10 wit_aw true (alit "root") t ws0) =
    {| ao_vars := [(alit "g", [(alit "root", 1%N)])]; ao_globals := [(alit "g", [(alit "root", 1%N)])]; ao_locals := [];
       ao_tags := [(TgEcho, [(alit "root", 1%N)]); (TgInclude, [(alit "root", 2%N)])];
       ao_loads := [(ASync, alit "nosuch", false)]; ao_end := Some ENotFound |}.
Proof. vm_compute. reflexivity. Qed.

(* The code as found: a snippet identified by the address of a node object.
   root: {% render 'p' %}{% render 'p', a: 1 %}{% render 'p', b: 1 %}    p: {% snippet s %}{% echo g %}{% endsnippet %}{% render s %}
   p is loaded three times (different keys), each load parses new nodes.  An allocator that never reuses an address sees
   three different snippets and visits each in full; one that gives the third parse the addresses of the first (dead by
   then) recognises the snippet as seen and skips it.  Both are legal behaviours of CPython, and the allocation pattern of
   analyze() differs from that of analyze_async(): the two report different results for one template. *)
Definition old_p : list anode := [ASnippet 10 (alit "s") [AProbe 11 [alit "g"]]; ARenderSnippet 12 (alit "s") []].
Definition old_root : list anode := [ARender 1 (alit "p") []; ARender 2 (alit "p") [alit "a"]; ARender 3 (alit "p") [alit "b"]].
Definition old_world (addr : N -> N -> N) : aworld := {| aw_ld := fun _ n => alookup n [(alit "p", old_p)]; aw_addr := addr |}.
Definition addr_fresh : N -> N -> N := fun load id => (1000 * load + id)%N.
Definition addr_reused : N -> N -> N := fun load id => if N.eqb load 3 then (1000 + id)%N else (1000 * load + id)%N.

Theorem snippet_identity_by_address_refuted :
  ao_globals (aobserve (analyze_sync 10 (old_world addr_reused) true (alit "root") old_root ws0)) <>
  ao_globals (aobserve (analyze_async 10 (old_world addr_fresh) true (alit "root") old_root ws0)) /\
  ao_globals (aobserve (analyze_sync 10 (old_world addr_reused) true (alit "root") old_root ws0)) <>
  ao_globals (aobserve (analyze_sync 10 (old_world addr_fresh) true (alit "root") old_root ws0)).
Proof. split; vm_compute; discriminate. Qed.

(* the repaired identity: position in the source, whatever the load *)
Example snippet_identity_by_position :
  ao_globals (aobserve (analyze_sync 10 (old_world by_position) true (alit "root") old_root ws0)) =
    [(alit "g", [(alit "p", 11%N)])] /\
  aobserve (analyze_async 10 (old_world by_position) true (alit "root") old_root ws0) =
  let o := aobserve (analyze_sync 10 (old_world by_position) true (alit "root") old_root ws0) in
  {| ao_vars := ao_vars o; ao_globals := ao_globals o; ao_locals := ao_locals o; ao_tags := ao_tags o;
     ao_loads := map (fun x => (AAsync, snd (fst x), snd x)) (ao_loads o); ao_end := ao_end o |}.
Proof. split; vm_compute; reflexivity. Qed.
