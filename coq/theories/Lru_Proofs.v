(* Facts about the LRU cache model (Lru.v): the list operations behind the cache, the invariant of the
   recency-stamped machine, its erasure to the plain machine, the thread-safe class.
   Invariants: wf for `make` only; GInv = order of last use, any capacity; LruSpec.RInv = GInv + capacity bound
   (rinv_split); HInv = entries agree with the history. *)
From LiquidVerif Require Import Prelude Lru.
From Coq Require Import Sorted.

(* final, gfinal and tfinal are folds of a step function: what every step preserves holds after every run *)
Lemma fold_left_inv {S O} (f : S -> O -> S) (P : S -> Prop) :
  (forall s o, P s -> P (f s o)) -> forall os s, P s -> P (fold_left f os s).
Proof.
  intros Hf os. induction os as [|o os IH]; simpl; intros s H; [exact H | apply IH, Hf, H].
Qed.

(* ------------------------------------------------------------------ adding at the end *)
Lemma NoDup_snoc {A} (l : list A) x : NoDup l -> ~ In x l -> NoDup (l ++ [x]).
Proof.
  intros Hnd Hx. rewrite <- (rev_involutive (l ++ [x])), rev_app_distr. apply NoDup_rev. simpl.
  constructor; [rewrite <- in_rev; exact Hx | apply NoDup_rev, Hnd].
Qed.

Lemma sorted_snoc {A} (R : A -> A -> Prop) l x :
  StronglySorted R l -> Forall (fun y => R y x) l -> StronglySorted R (l ++ [x]).
Proof.
  induction 1 as [|y l Hs IH Hf]; simpl; intro Hall; [repeat constructor|].
  inversion Hall; subst. constructor; [apply IH; assumption|].
  apply Forall_app. split; [exact Hf | repeat constructor; assumption].
Qed.

Lemma sorted_rev {A} (R : A -> A -> Prop) l : StronglySorted (fun a b => R b a) l -> StronglySorted R (rev l).
Proof.
  induction 1 as [|a l Hs IH Hall]; simpl; [constructor|].
  apply sorted_snoc; [exact IH | apply Forall_rev, Hall].
Qed.

(* ------------------------------------------------------------------ lookup and remove_key *)
Lemma lookup_in k l v : lookup k l = Some v -> In k (map fst l).
Proof.
  induction l as [|[k' v'] l IH]; simpl; [discriminate|].
  destruct (N.eqb_spec k k') as [->|Hn]; auto.
Qed.

Lemma lookup_none k l : lookup k l = None <-> ~ In k (map fst l).
Proof.
  induction l as [|[k' v'] l IH]; simpl; [tauto|].
  destruct (N.eqb_spec k k') as [->|Hn]; [split; [discriminate | tauto]|].
  rewrite IH. split; [intros H [E|Hin]; [congruence | exact (H Hin)] | tauto].
Qed.

Lemma remove_key_keys k l : map fst (remove_key k l) = filter (fun x => negb (N.eqb k x)) (map fst l).
Proof.
  induction l as [|[k' v'] l IH]; simpl; [reflexivity|].
  destruct (N.eqb k k'); simpl; congruence.
Qed.

Lemma remove_key_not_in k l : ~ In k (map fst (remove_key k l)).
Proof.
  rewrite remove_key_keys, filter_In. intros [_ H]. rewrite N.eqb_refl in H. discriminate.
Qed.

Lemma remove_key_subset k l x : In x (map fst (remove_key k l)) -> In x (map fst l).
Proof. rewrite remove_key_keys, filter_In. tauto. Qed.

Lemma remove_key_nodup k l : NoDup (map fst l) -> NoDup (map fst (remove_key k l)).
Proof. rewrite remove_key_keys. apply NoDup_filter. Qed.

(* the plain machine's invariant, bounded and duplicate-free: what `make` establishes (after a run: LruSpec.RInv) *)
Definition wf (c : cache) : Prop :=
  1 <= cap c /\ NoDup (map fst (items c)) /\ length (items c) <= cap c.

Lemma wf_empty n : 1 <= n -> wf (empty n).
Proof. intro H. repeat split; simpl; [exact H | constructor | lia]. Qed.

(* ------------------------------------------------------------------ the stamped list and its erasure *)
Lemma glookup_erase k l : lookup k (erase_items l) = option_map fst (glookup k l).
Proof.
  induction l as [|[[k' v] t] l IH]; simpl; [reflexivity|].
  destruct (N.eqb k k'); [reflexivity | exact IH].
Qed.

Lemma gremove_erase k l : erase_items (gremove k l) = remove_key k (erase_items l).
Proof.
  induction l as [|[[k' v] t] l IH]; simpl; [reflexivity|].
  destruct (N.eqb k k'); simpl; congruence.
Qed.

Lemma erase_app a b : erase_items (a ++ b) = erase_items a ++ erase_items b.
Proof. apply map_app. Qed.

Lemma erase_rev_snoc l k v t : rev (erase_items (l ++ [(k, v, t)])) = (k, v) :: rev (erase_items l).
Proof. rewrite erase_app, rev_app_distr. reflexivity. Qed.

Lemma erase_tl l : erase_items (tl l) = tl (erase_items l).
Proof. destruct l; reflexivity. Qed.

Lemma erase_length l : length (erase_items l) = length l.
Proof. apply map_length. Qed.

Lemma glookup_none k l : glookup k l = None <-> ~ In k (map fst (erase_items l)).
Proof. rewrite <- lookup_none, glookup_erase. destruct (glookup k l); simpl; split; congruence. Qed.

Lemma glookup_some_in k l x : glookup k l = Some x -> In k (map fst (erase_items l)).
Proof. intro H. apply (lookup_in k _ (fst x)). rewrite glookup_erase, H. reflexivity. Qed.

Lemma glookup_snoc l k k' v' t' :
  glookup k (l ++ [(k', v', t')]) =
  match glookup k l with Some x => Some x | None => if N.eqb k k' then Some (v', t') else None end.
Proof.
  induction l as [|[[k2 v2] t2] l IH]; simpl; [reflexivity|].
  destruct (N.eqb k k2); [reflexivity|exact IH].
Qed.

Lemma glookup_snoc_other l k k' v' t' : k <> k' -> glookup k (l ++ [(k', v', t')]) = glookup k l.
Proof.
  intro Hne. rewrite glookup_snoc. destruct (glookup k l); [reflexivity|].
  destruct (N.eqb_spec k k'); [congruence|reflexivity].
Qed.

Lemma glookup_gremove k k' l : glookup k' (gremove k l) = if N.eqb k' k then None else glookup k' l.
Proof.
  induction l as [|[[k2 v2] t2] l IH]; simpl; [destruct (N.eqb k' k); reflexivity|].
  destruct (N.eqb_spec k k2) as [->|Hk]; simpl; rewrite IH.
  - destruct (N.eqb k' k2); reflexivity.
  - destruct (N.eqb_spec k' k2) as [->|]; [|reflexivity]. destruct (N.eqb_spec k2 k); [congruence|reflexivity].
Qed.

(* with one entry per key, the head's key is not found further down *)
Lemma glookup_tl k0 v0 t0 rest k :
  NoDup (map fst (erase_items ((k0, v0, t0) :: rest))) ->
  glookup k rest = if N.eqb k k0 then None else glookup k ((k0, v0, t0) :: rest).
Proof.
  intro Hnd. inversion Hnd as [|? ? Hnin _]; subst. simpl.
  destruct (N.eqb_spec k k0) as [->|Hn]; [apply glookup_none, Hnin|reflexivity].
Qed.

Lemma glookup_tl_none k l : glookup k l = None -> glookup k (tl l) = None.
Proof.
  destruct l as [|[[k0 v0] t0] l]; simpl; [trivial|]. destruct (N.eqb k k0); [discriminate|trivial].
Qed.

Lemma gremove_length k l : length (gremove k l) <= length l.
Proof.
  induction l as [|[[k' v'] t'] l IH]; simpl; [apply le_n|].
  destruct (N.eqb k k'); simpl; [apply Nat.le_le_succ_r, IH | apply -> Nat.succ_le_mono; exact IH].
Qed.

Lemma gremove_length_hit k l x : glookup k l = Some x -> length (gremove k l) < length l.
Proof.
  induction l as [|[[k' v'] t'] l IH]; simpl; [discriminate|].
  destruct (N.eqb k k'); simpl; intro H; [apply Nat.lt_succ_r, gremove_length | apply -> Nat.succ_lt_mono; exact (IH H)].
Qed.

(* the stamped machine is the plain machine with ghost state: lookup-and-move, store, then every operation *)
Lemma do_get_erase g k :
  do_get (erase g) k =
  match glookup k (gitems g) with
  | Some (v, _) => (erase (gwith g (gremove k (gitems g) ++ [(k, v, clock g)])), Some v)
  | None => (erase g, None)
  end.
Proof.
  unfold do_get. cbn [erase items]. rewrite glookup_erase.
  destruct (glookup k (gitems g)) as [[v t]|]; cbn [option_map fst]; [|reflexivity].
  unfold erase, with_items. cbn [gwith gitems gcap cap]. rewrite erase_app, gremove_erase. reflexivity.
Qed.

Lemma do_set_erase g k v :
  do_set (erase g) k v =
  erase (gwith g match glookup k (gitems g) with
                 | Some _ => gremove k (gitems g) ++ [(k, v, clock g)]
                 | None => if Nat.leb (gcap g) (length (gitems g))
                           then tl (gitems g) ++ [(k, v, clock g)] else gitems g ++ [(k, v, clock g)]
                 end).
Proof.
  unfold do_set, erase, with_items. cbn [items cap gwith gitems gcap]. rewrite glookup_erase, erase_length.
  destruct (glookup k (gitems g)) as [[v0 t]|]; cbn [option_map]; [rewrite erase_app, gremove_erase; reflexivity|].
  destruct (Nat.leb (gcap g) (length (gitems g))); rewrite erase_app, ?erase_tl; reflexivity.
Qed.

Lemma gstep_erase g o :
  erase (fst (gstep g o)) = fst (step (erase g) o) /\ snd (gstep g o) = snd (step (erase g) o).
Proof.
  destruct o as [k|k d|k|k v|k|k| | | | |]; cbn [gstep step].
  1-3: rewrite do_get_erase; destruct (glookup k (gitems g)) as [[v0 t0]|]; split; reflexivity.
  - rewrite do_set_erase. destruct (glookup k (gitems g)); [|destruct (Nat.leb (gcap g) (length (gitems g)))]; split; reflexivity.
  - cbn [erase items]. rewrite glookup_erase. destruct (glookup k (gitems g)) as [[v0 t0]|]; cbn [option_map fst snd]; [|split; reflexivity].
    unfold erase, with_items. cbn [gwith gitems gcap cap items]. rewrite gremove_erase. split; reflexivity.
  - cbn [erase items]. rewrite glookup_erase. destruct (glookup k (gitems g)) as [[v0 t0]|]; split; reflexivity.
  - cbn [erase items fst snd]. rewrite erase_length. split; reflexivity.
  - split; reflexivity.
  - split; reflexivity.
  - split; reflexivity.
  - split; reflexivity.
Qed.

Lemma gfinal_erase ops : forall g, erase (gfinal g ops) = final (erase g) ops.
Proof.
  unfold gfinal, final. induction ops as [|o ops IH]; simpl; intro g; [reflexivity|].
  rewrite IH. f_equal. apply gstep_erase.
Qed.

(* What an operation does to the entries: nothing; a use of a present key moves it to the end with the clock as its
   stamp; a store of a new key enters it at the end, dropping the head when the cache is full; a deletion removes
   the key.  Every operation advances the clock and keeps the capacity. *)
Inductive reshaped (g : gcache) : list (N * Z * nat) -> Prop :=
| R_same : reshaped g (gitems g)
| R_touch k v x : glookup k (gitems g) = Some x -> reshaped g (gremove k (gitems g) ++ [(k, v, clock g)])
| R_evict k v : glookup k (gitems g) = None -> gcap g <= length (gitems g) ->
    reshaped g (tl (gitems g) ++ [(k, v, clock g)])
| R_add k v : glookup k (gitems g) = None -> length (gitems g) < gcap g -> reshaped g (gitems g ++ [(k, v, clock g)])
| R_drop k : reshaped g (gremove k (gitems g)).

Lemma gstep_reshaped g o : exists l, reshaped g l /\ fst (gstep g o) = gwith g l.
Proof.
  destruct o as [k|k d|k|k v|k| | | | | |]; simpl; try (eexists; split; [apply R_same|reflexivity]).
  1-3: destruct (glookup k (gitems g)) as [[v t]|] eqn:E; eexists; (split; [|reflexivity]);
       [eapply R_touch, E|apply R_same].
  - destruct (glookup k (gitems g)) as [x|] eqn:E; [eexists; split; [eapply R_touch, E|reflexivity]|].
    destruct (Nat.leb_spec (gcap g) (length (gitems g))); eexists; (split; [|reflexivity]);
      [apply R_evict|apply R_add]; assumption.
  - destruct (glookup k (gitems g)); eexists; (split; [|reflexivity]); [apply R_drop|apply R_same].
Qed.

Lemma gstep_cap g o : gcap (fst (gstep g o)) = gcap g.
Proof. destruct (gstep_reshaped g o) as (l & _ & ->). reflexivity. Qed.

Lemma gstep_clock g o : clock (fst (gstep g o)) = S (clock g).
Proof. destruct (gstep_reshaped g o) as (l & _ & ->). reflexivity. Qed.

Lemma gfinal_snoc g ops o : gfinal g (ops ++ [o]) = fst (gstep (gfinal g ops) o).
Proof. unfold gfinal. rewrite fold_left_app. reflexivity. Qed.

Lemma gfinal_cap ops g : gcap (gfinal g ops) = gcap g.
Proof.
  apply (fold_left_inv _ (fun g' => gcap g' = gcap g)); [|reflexivity].
  intros g' o H. rewrite gstep_cap. exact H.
Qed.

(* ------------------------------------------------------------------ the invariant of the stamped machine *)
Definition times (l : list (N * Z * nat)) : list nat := map snd l.

(* holds whatever the capacity is: one entry per key, entries in order of last use, every stamp before the clock *)
Definition ordered (c : nat) (l : list (N * Z * nat)) : Prop :=
  NoDup (map fst (erase_items l)) /\ StronglySorted lt (times l) /\ Forall (fun t => t < c) (times l).

Definition GInv (g : gcache) : Prop := ordered (clock g) (gitems g).

Lemma forall_gremove k l (P : nat -> Prop) : Forall P (times l) -> Forall P (times (gremove k l)).
Proof.
  induction l as [|[[k' v] t] l IH]; simpl; intro H; [constructor|].
  inversion H; subst. destruct (N.eqb k k'); simpl; [|constructor]; auto.
Qed.

Lemma sorted_gremove k l : StronglySorted lt (times l) -> StronglySorted lt (times (gremove k l)).
Proof.
  induction l as [|[[k' v] t] l IH]; simpl; intro H; [constructor|].
  inversion H as [|? ? Hs Hf]; subst.
  destruct (N.eqb k k'); [exact (IH Hs)|]. simpl. constructor; [exact (IH Hs) | apply forall_gremove, Hf].
Qed.

Lemma ordered_gremove c k l : ordered c l -> ordered c (gremove k l).
Proof.
  intros (Hnd & Hs & Hf). repeat split.
  - rewrite gremove_erase. apply remove_key_nodup, Hnd.
  - apply sorted_gremove, Hs.
  - apply forall_gremove, Hf.
Qed.

Lemma ordered_tl c l : ordered c l -> ordered c (tl l).
Proof.
  destruct l as [|x l]; [trivial|]. intros (Hnd & Hs & Hf). simpl in Hnd, Hs, Hf |- *.
  apply NoDup_cons_iff in Hnd. apply StronglySorted_inv in Hs.
  split; [apply Hnd|split; [apply Hs|exact (Forall_inv_tail Hf)]].
Qed.

Lemma ordered_later c l : ordered c l -> ordered (S c) l.
Proof.
  intros (Hnd & Hs & Hf). repeat split; [exact Hnd | exact Hs|]. revert Hf. apply Forall_impl. intros; lia.
Qed.

(* a use: the key, absent from the list, is entered at the end with the clock as its stamp *)
Lemma ordered_snoc c l k v : ordered c l -> glookup k l = None -> ordered (S c) (l ++ [(k, v, c)]).
Proof.
  intros (Hnd & Hs & Hf) Hk. unfold ordered, times. rewrite erase_app, !map_app. simpl. repeat split.
  - apply NoDup_snoc; [exact Hnd | apply glookup_none, Hk].
  - apply sorted_snoc; assumption.
  - apply Forall_app. split; [apply (ordered_later c l); repeat split; assumption | repeat constructor].
Qed.

Lemma gstep_inv g o : GInv g -> GInv (fst (gstep g o)).
Proof.
  unfold GInv. intro H. destruct (gstep_reshaped g o) as (l & Hl & ->). cbn [gwith clock gitems].
  destruct Hl as [|k v x E|k v E Hfull|k v E Hroom|k].
  - apply ordered_later, H.
  - apply ordered_snoc; [apply ordered_gremove, H|]. rewrite glookup_gremove, N.eqb_refl. reflexivity.
  - apply ordered_snoc; [apply ordered_tl, H|apply glookup_tl_none, E].
  - apply ordered_snoc; assumption.
  - apply ordered_later, ordered_gremove, H.
Qed.

Lemma gfinal_inv n ops : GInv (gfinal (gempty n) ops).
Proof. apply (fold_left_inv _ GInv); [exact gstep_inv | repeat split; constructor]. Qed.

(* with a capacity of at least one the bound is kept as well *)
Lemma gstep_length g o :
  1 <= gcap g -> length (gitems g) <= gcap g -> length (gitems (fst (gstep g o))) <= gcap g.
Proof.
  intros Hc Hl. destruct (gstep_reshaped g o) as (l & Hr & ->). cbn [gwith gitems].
  destruct Hr as [|k v x E|k v E Hfull|k v E Hroom|k]; rewrite ?app_length, ?Nat.add_1_r.
  - exact Hl.
  - exact (Nat.lt_le_trans _ _ _ (gremove_length_hit _ _ _ E) Hl).
  - (* the head goes; an empty list is full only at capacity 0, excluded here *)
    destruct (gitems g); [exact Hc|exact Hl].
  - exact Hroom.
  - exact (Nat.le_trans _ _ _ (gremove_length k (gitems g)) Hl).
Qed.

(* ------------------------------------------------------------------ histories *)
(* The specification side of "a lookup returns the latest store": what a history says about a key.  That every entry
   of the machine agrees with it is LruSpec_Proofs.history_reachable. *)
(* a lookup that misses counts too: HInv reads last_use only for present keys, whose lookups hit *)
Definition uses (o : op) (k : N) : bool :=
  match o with Get k' | GetD k' _ | GetN k' | Set_ k' _ => N.eqb k k' | _ => false end.

(* the index of the last operation that used k (history most recent first): what the time stamp of a present key is *)
Fixpoint last_use (hr : list op) (k : N) : option nat :=
  match hr with
  | [] => None
  | o :: hr' => if uses o k then Some (length hr') else last_use hr' k
  end.

(* value stored by the most recent Set of k, if no Del k came after it (most recent first) *)
Fixpoint last_stored (hr : list op) (k : N) : option Z :=
  match hr with
  | [] => None
  | Set_ k' v :: hr' => if N.eqb k k' then Some v else last_stored hr' k
  | Del k' :: hr' => if N.eqb k k' then None else last_stored hr' k
  | _ :: hr' => last_stored hr' k
  end.

(* ------------------------------------------------------------------ thread-safe variant *)
(* Call actions are whole method bodies (the assumption "the lock makes each method body atomic"); that a schedule
   restricted to them is a sequential history is C24_threadsafe_linearizable. *)
Fixpoint calls (acts : list action) : list op :=
  match acts with
  | [] => []
  | Call _ o :: a => o :: calls a
  | _ :: a => calls a
  end.

Definition tfinal m (s : tstate) (acts : list action) : tstate :=
  fold_left (fun s a => fst (tstep m s a)) acts s.

Lemma tstep_cache m s a :
  tc (fst (tstep m s a)) = match a with Call _ o => fst (step (tc s) o) | _ => tc s end.
Proof.
  destruct a; simpl.
  - destruct (step (tc s) o); reflexivity.
  - reflexivity.
  - destruct (iter_lookup tid (titers s)) as [[[|kv rest]|ver n]|]; simpl; try reflexivity.
    destruct (negb (ver =? tver s)); simpl; [reflexivity|].
    destruct (nth_error (rev (items (tc s))) n); reflexivity.
Qed.

Lemma iter_lookup_set_same tid i l : iter_lookup tid (iter_set tid i l) = Some i.
Proof.
  induction l as [|[t j] l IH]; simpl; [rewrite Nat.eqb_refl; reflexivity|].
  destruct (Nat.eqb_spec tid t) as [->|Hn]; simpl; [rewrite Nat.eqb_refl; reflexivity|].
  destruct (Nat.eqb_spec tid t); [congruence|exact IH].
Qed.

Lemma iter_lookup_set_other tid t i l : t <> tid -> iter_lookup t (iter_set tid i l) = iter_lookup t l.
Proof.
  intro Hne. induction l as [|[t2 j] l IH]; simpl.
  - destruct (Nat.eqb_spec t tid); [congruence|reflexivity].
  - destruct (Nat.eqb_spec tid t2) as [->|Hn]; simpl.
    + destruct (Nat.eqb_spec t t2); [congruence|reflexivity].
    + destruct (Nat.eqb t t2); [reflexivity|exact IH].
Qed.

(* a call, and an action of another thread, leave a thread's iterator alone *)
Lemma tstep_iter_other m s a tid :
  match a with Call _ _ => True | ListBegin t | ListNext t => t <> tid end ->
  iter_lookup tid (titers (fst (tstep m s a))) = iter_lookup tid (titers s).
Proof.
  destruct a as [t o|t|t]; simpl; intro Hne.
  - destruct (step (tc s) o); reflexivity.
  - apply iter_lookup_set_other. congruence.
  - destruct (iter_lookup t (titers s)) as [[[|kv r]|ver n]|]; simpl; try reflexivity.
    + apply iter_lookup_set_other. congruence.
    + destruct (negb (ver =? tver s)); [reflexivity|].
      destruct (nth_error (rev (items (tc s))) n); simpl; [apply iter_lookup_set_other; congruence|reflexivity].
Qed.

(* with snapshot listings every iterator owns a copy: no step can invalidate one *)
Definition all_snap (s : tstate) : Prop :=
  forall t i, iter_lookup t (titers s) = Some i -> exists r, i = ISnap r.

Lemma all_snap_set s tid r c v :
  all_snap s -> all_snap {| tc := c; tver := v; titers := iter_set tid (ISnap r) (titers s) |}.
Proof.
  intros H t i. simpl. destruct (Nat.eq_dec t tid) as [->|Hne].
  - rewrite iter_lookup_set_same. intro E; inversion E; eauto.
  - rewrite iter_lookup_set_other by exact Hne. apply H.
Qed.

Lemma tstep_snapshot_ok s a :
  all_snap s -> all_snap (fst (tstep Snapshot s a)) /\ snd (tstep Snapshot s a) <> TRuntimeError.
Proof.
  intro H. destruct a; simpl.
  - destruct (step (tc s) o); simpl. split; [exact H | discriminate].
  - split; [apply all_snap_set, H | discriminate].
  - destruct (iter_lookup tid (titers s)) as [i|] eqn:E; [|split; [exact H|discriminate]].
    destruct (H _ _ E) as [r ->]. destruct r as [|kv rest]; simpl.
    + split; [exact H|discriminate].
    + split; [apply all_snap_set, H | discriminate].
Qed.

(* what a thread's listing yields in a schedule *)
Fixpoint yields_of (tid : nat) (acts : list action) (outs : list tout) : list (N * Z) :=
  match acts, outs with
  | ListNext t :: a, TYield kv :: o => if Nat.eqb t tid then kv :: yields_of tid a o else yields_of tid a o
  | _ :: a, _ :: o => yields_of tid a o
  | _, _ => []
  end.
