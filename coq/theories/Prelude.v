(* Prelude: shared vocabulary of all models.  No proofs about the system here. *)
From Coq Require Export List Bool Arith ZArith NArith Lia.
Export ListNotations.

(* Python str = list of Unicode code points *)
Definition str := list N.

Fixpoint str_eqb (a b : str) : bool :=
  match a, b with
  | [], [] => true
  | x :: a', y :: b' => N.eqb x y && str_eqb a' b'
  | _, _ => false
  end.

Lemma str_eqb_spec a b : reflect (a = b) (str_eqb a b).
Proof.
  revert b; induction a as [|x a IH]; intros [|y b]; simpl; try (constructor; congruence).
  destruct (N.eqb_spec x y) as [->|Hn]; simpl.
  - destruct (IH b) as [->|Hn]; constructor; congruence.
  - constructor; congruence.
Qed.

Lemma str_eqb_refl a : str_eqb a a = true.
Proof. destruct (str_eqb_spec a a); congruence. Qed.

Lemma str_eqb_eq a b : str_eqb a b = true <-> a = b.
Proof. destruct (str_eqb_spec a b); split; congruence. Qed.

(* Exceptions the properties name.  Liquid classes first, then foreign ones. *)
Inductive exn :=
| ELiquid            (* any other LiquidError subclass *)
| ESyntax | EType | EUndefined | EDisabledTag | ENotFound | ENoSuchFilter | EFilterArg
| ELoopLimit | EOutputLimit | ENamespaceLimit | EContextDepth   (* ResourceLimitError subclasses *)
| EInherit | ERequiredBlock
| EValueError | ETypeError | EOverflowError | EIndexError | EKeyError | EAssertionError
| EArithmeticError | ERecursionError | EUnicodeError | EOSError | ERuntimeError | EOtherForeign.

Definition is_liquid (e : exn) : bool :=
  match e with
  | EValueError | ETypeError | EOverflowError | EIndexError | EKeyError | EAssertionError
  | EArithmeticError | ERecursionError | EUnicodeError | EOSError | ERuntimeError | EOtherForeign => false
  | _ => true
  end.

Definition is_resource_limit (e : exn) : bool :=
  match e with ELoopLimit | EOutputLimit | ENamespaceLimit | EContextDepth => true | _ => false end.

Definition exn_eqb (a b : exn) : bool :=
  match a, b with
  | ELiquid, ELiquid | ESyntax, ESyntax | EType, EType | EUndefined, EUndefined
  | EDisabledTag, EDisabledTag | ENotFound, ENotFound | ENoSuchFilter, ENoSuchFilter
  | EFilterArg, EFilterArg | ELoopLimit, ELoopLimit | EOutputLimit, EOutputLimit
  | ENamespaceLimit, ENamespaceLimit | EContextDepth, EContextDepth | EInherit, EInherit
  | ERequiredBlock, ERequiredBlock | EValueError, EValueError | ETypeError, ETypeError
  | EOverflowError, EOverflowError | EIndexError, EIndexError | EKeyError, EKeyError
  | EAssertionError, EAssertionError | EArithmeticError, EArithmeticError
  | ERecursionError, ERecursionError | EUnicodeError, EUnicodeError | EOSError, EOSError
  | ERuntimeError, ERuntimeError | EOtherForeign, EOtherForeign => true
  | _, _ => false
  end.

Lemma exn_eqb_eq a b : exn_eqb a b = true <-> a = b.
Proof.
  split; [|intros ->; destruct b; reflexivity].
  destruct a, b; intro H; (reflexivity || discriminate H).
Qed.

(* Outcomes.  Fuel exhaustion is a separate constructor and never a normal value. *)
Inductive res (A : Type) := Ok (a : A) | Err (e : exn) | OutOfFuel.
Arguments Ok {A} a. Arguments Err {A} e. Arguments OutOfFuel {A}.

Definition bind {A B} (r : res A) (f : A -> res B) : res B :=
  match r with Ok a => f a | Err e => Err e | OutOfFuel => OutOfFuel end.
Notation "'do' x <- r ; k" := (bind r (fun x => k)) (at level 200, x pattern, r at level 100, k at level 200).

Lemma bind_ok {A B} (r : res A) (f : A -> res B) b : bind r f = Ok b -> exists a, r = Ok a /\ f a = Ok b.
Proof. destruct r as [a| |]; simpl; intro H; [exists a; auto | discriminate | discriminate]. Qed.

(* Correspondence support: indices (as N) at which the model's observation
   differs from the implementation's.  The comparison happens inside Coq. *)
Section Mismatch.
  Context {C M O : Type} (run : C -> M) (eqb : M -> O -> bool).
  Fixpoint mismatches_from (i : N) (cs : list C) (es : list O) : list N :=
    match cs, es with
    | c :: cs', e :: es' =>
        if eqb (run c) e then mismatches_from (N.succ i) cs' es'
        else i :: mismatches_from (N.succ i) cs' es'
    | [], [] => []
    | _, _ => [i]       (* length disagreement is itself a mismatch *)
    end.
  Definition mismatches := mismatches_from 0%N.
End Mismatch.

Fixpoint list_eqb {A} (eqb : A -> A -> bool) (a b : list A) : bool :=
  match a, b with
  | [], [] => true
  | x :: a', y :: b' => eqb x y && list_eqb eqb a' b'
  | _, _ => false
  end.

Lemma list_eqb_eq {A} (eqb : A -> A -> bool) (H : forall x y, eqb x y = true <-> x = y) a b :
  list_eqb eqb a b = true <-> a = b.
Proof.
  revert b; induction a as [|x a IH]; intros [|y b]; simpl; try (split; congruence).
  rewrite andb_true_iff, H, IH. split; [intros [-> ->]; reflexivity | intro E; inversion E; auto].
Qed.

Definition option_eqb {A} (eqb : A -> A -> bool) (a b : option A) : bool :=
  match a, b with Some x, Some y => eqb x y | None, None => true | _, _ => false end.

(* association lists keyed by str *)
Fixpoint alookup {V} (k : str) (l : list (str * V)) : option V :=
  match l with
  | [] => None
  | (k', v) :: l' => if str_eqb k k' then Some v else alookup k l'
  end.

Lemma alookup_In {V} k (l : list (str * V)) v : alookup k l = Some v -> In (k, v) l.
Proof.
  induction l as [|[k' w] l IH]; simpl; [discriminate|].
  destruct (str_eqb_spec k k') as [->|_]; [intro E; left; congruence | intro E; right; exact (IH E)].
Qed.

Lemma alookup_forallb {V} (P : V -> bool) k (l : list (str * V)) v :
  forallb (fun kv => P (snd kv)) l = true -> alookup k l = Some v -> P v = true.
Proof.
  intros H E. apply alookup_In in E. rewrite forallb_forall in H. exact (H _ E).
Qed.

Lemma forallb_rev {A} (f : A -> bool) l : forallb f (rev l) = forallb f l.
Proof. induction l as [|x l IH]; simpl; [reflexivity|]. rewrite forallb_app, IH. simpl. rewrite andb_true_r. apply andb_comm. Qed.
