(* Model of liquid/utils/lru_cache.py : LRUCache and ThreadSafeLRUCache.
   Executable definitions only; lemmas live in Lru_Proofs.v, the theorems in Props/C24.v. *)
From LiquidVerif Require Import Prelude.

Notation key := N (only parsing).
Notation value := Z (only parsing).

(* items: least recently used FIRST, exactly like the OrderedDict in the code. *)
Record cache := { cap : nat; items : list (N * Z) }.

Inductive op :=
| Get (k : N)                 (* c[k] *)
| GetD (k : N) (d : Z)        (* c.get(k, d) *)
| GetN (k : N)                (* c.get(k): the default of the default is None *)
| Set_ (k : N) (v : Z)        (* c[k] = v *)
| Del (k : N)                 (* del c[k] *)
| Contains (k : N)            (* k in c *)
| Len                         (* len(c) *)
| Keys | Values | Items       (* list(c.keys()) ... *)
| Iter.                       (* list(iter(c)) *)

Inductive out :=
| OVal (v : Z) | OKeyError | ODone | OBool (b : bool) | OLen (n : nat) | ONone
| OKeys (l : list N) | OVals (l : list Z) | OItems (l : list (N * Z)).

Fixpoint lookup (k : N) (l : list (N * Z)) : option Z :=
  match l with
  | [] => None
  | (k', v) :: l' => if N.eqb k k' then Some v else lookup k l'
  end.

Fixpoint remove_key (k : N) (l : list (N * Z)) : list (N * Z) :=
  match l with
  | [] => []
  | (k', v) :: l' => if N.eqb k k' then remove_key k l' else (k', v) :: remove_key k l'
  end.

Definition with_items (c : cache) (l : list (N * Z)) : cache := {| cap := cap c; items := l |}.

(* __getitem__: KeyError if absent, else move_to_end and return *)
Definition do_get (c : cache) (k : N) : cache * option Z :=
  match lookup k (items c) with
  | None => (c, None)
  | Some v => (with_items c (remove_key k (items c) ++ [(k, v)]), Some v)
  end.

(* __setitem__: move_to_end, or on KeyError evict the first item when full; then store *)
Definition do_set (c : cache) (k : N) (v : Z) : cache :=
  match lookup k (items c) with
  | Some _ => with_items c (remove_key k (items c) ++ [(k, v)])
  | None =>
      if Nat.leb (cap c) (length (items c))
      then with_items c (tl (items c) ++ [(k, v)])
      else with_items c (items c ++ [(k, v)])
  end.

Definition step (c : cache) (o : op) : cache * out :=
  match o with
  | Get k => match do_get c k with (c', Some v) => (c', OVal v) | (c', None) => (c', OKeyError) end
  | GetD k d => match do_get c k with (c', Some v) => (c', OVal v) | (c', None) => (c', OVal d) end
  | GetN k => match do_get c k with (c', Some v) => (c', OVal v) | (c', None) => (c', ONone) end
  | Set_ k v => (do_set c k v, ODone)
  | Del k => match lookup k (items c) with
             | Some _ => (with_items c (remove_key k (items c)), ODone)
             | None => (c, OKeyError)
             end
  | Contains k => (c, OBool (match lookup k (items c) with Some _ => true | None => false end))
  | Len => (c, OLen (length (items c)))
  | Keys | Iter => (c, OKeys (rev (map fst (items c))))
  | Values => (c, OVals (rev (map snd (items c))))
  | Items => (c, OItems (rev (items c)))
  end.

Definition empty (n : nat) : cache := {| cap := n; items := [] |}.

(* LRUCache.__init__(capacity): ValueError (None) for a capacity below 1, else an empty cache *)
Definition make (n : Z) : option cache := if (n <? 1)%Z then None else Some (empty (Z.to_nat n)).

(* run an op list, collecting every output and the item list after every op *)
Fixpoint run (c : cache) (ops : list op) : list (out * list (N * Z)) :=
  match ops with
  | [] => []
  | o :: ops' => let '(c', r) := step c o in (r, items c') :: run c' ops'
  end.

Definition final (c : cache) (ops : list op) : cache := fold_left (fun c o => fst (step c o)) ops c.

(* ---- ghost-instrumented machine: every entry carries the time of its last use ---- *)
Record gcache := { gcap : nat; gitems : list (N * Z * nat); clock : nat }.

Definition erase_items (l : list (N * Z * nat)) : list (N * Z) := map fst l.
Definition erase (g : gcache) : cache := {| cap := gcap g; items := erase_items (gitems g) |}.

Fixpoint glookup (k : N) (l : list (N * Z * nat)) : option (Z * nat) :=
  match l with
  | [] => None
  | (k', v, t) :: l' => if N.eqb k k' then Some (v, t) else glookup k l'
  end.

Fixpoint gremove (k : N) (l : list (N * Z * nat)) : list (N * Z * nat) :=
  match l with
  | [] => []
  | (k', v, t) :: l' => if N.eqb k k' then gremove k l' else (k', v, t) :: gremove k l'
  end.

Definition gwith (g : gcache) (l : list (N * Z * nat)) : gcache :=
  {| gcap := gcap g; gitems := l; clock := S (clock g) |}.

(* A *use* (successful lookup or store) stamps the entry with the current clock. *)
Definition gstep (g : gcache) (o : op) : gcache * out :=
  match o with
  | Get k => match glookup k (gitems g) with
             | Some (v, _) => (gwith g (gremove k (gitems g) ++ [(k, v, clock g)]), OVal v)
             | None => (gwith g (gitems g), OKeyError)
             end
  | GetD k d => match glookup k (gitems g) with
             | Some (v, _) => (gwith g (gremove k (gitems g) ++ [(k, v, clock g)]), OVal v)
             | None => (gwith g (gitems g), OVal d)
             end
  | GetN k => match glookup k (gitems g) with
             | Some (v, _) => (gwith g (gremove k (gitems g) ++ [(k, v, clock g)]), OVal v)
             | None => (gwith g (gitems g), ONone)
             end
  | Set_ k v => match glookup k (gitems g) with
             | Some _ => (gwith g (gremove k (gitems g) ++ [(k, v, clock g)]), ODone)
             | None => if Nat.leb (gcap g) (length (gitems g))
                       then (gwith g (tl (gitems g) ++ [(k, v, clock g)]), ODone)
                       else (gwith g (gitems g ++ [(k, v, clock g)]), ODone)
             end
  | Del k => match glookup k (gitems g) with
             | Some _ => (gwith g (gremove k (gitems g)), ODone)
             | None => (gwith g (gitems g), OKeyError)
             end
  | Contains k => (gwith g (gitems g), OBool (match glookup k (gitems g) with Some _ => true | None => false end))
  | Len => (gwith g (gitems g), OLen (length (gitems g)))
  | Keys | Iter => (gwith g (gitems g), OKeys (rev (map fst (erase_items (gitems g)))))
  | Values => (gwith g (gitems g), OVals (rev (map snd (erase_items (gitems g)))))
  | Items => (gwith g (gitems g), OItems (rev (erase_items (gitems g))))
  end.

Definition gempty (n : nat) : gcache := {| gcap := n; gitems := []; clock := 0 |}.
Definition gfinal (g : gcache) (ops : list op) : gcache := fold_left (fun g o => fst (gstep g o)) ops g.

(* ---- the thread-safe class: atomic sections under the lock ----
   Every method body runs under the lock, so a method call is one atomic action.
   A listing (keys/values/items/iter) is two kinds of action: ListBegin creates the
   iterator under the lock, ListNext advances it *outside* the lock.
   [Snapshot]: the iterator owns a copy made under the lock (code after the fix).
   [Lazy]: the iterator is a live reversed view over the OrderedDict, which CPython
   invalidates (RuntimeError) as soon as the key order changes (code before the fix). *)
Inductive listing_mode := Snapshot | Lazy.

Inductive iterst :=
| ISnap (rest : list (N * Z))          (* remaining items, most recent first *)
| ILazy (ver : nat) (consumed : nat).  (* version at creation, items already yielded *)

Record tstate := { tc : cache; tver : nat; titers : list (nat * iterst) }.

Inductive action :=
| Call (tid : nat) (o : op)
| ListBegin (tid : nat)
| ListNext (tid : nat).

Inductive tout :=
| TOut (o : out) | TStarted | TYield (kv : N * Z) | TStop | TRuntimeError | TNoIter.

Fixpoint iter_lookup (tid : nat) (l : list (nat * iterst)) : option iterst :=
  match l with
  | [] => None
  | (t, i) :: l' => if Nat.eqb tid t then Some i else iter_lookup tid l'
  end.

Fixpoint iter_set (tid : nat) (i : iterst) (l : list (nat * iterst)) : list (nat * iterst) :=
  match l with
  | [] => [(tid, i)]
  | (t, j) :: l' => if Nat.eqb tid t then (tid, i) :: l' else (t, j) :: iter_set tid i l'
  end.

Definition keys_of (c : cache) : list N := map fst (items c).
Definition keys_eqb (a b : list N) : bool := list_eqb N.eqb a b.

Definition tstep (m : listing_mode) (s : tstate) (a : action) : tstate * tout :=
  match a with
  | Call _ o =>
      let '(c', r) := step (tc s) o in
      let ver' := if keys_eqb (keys_of c') (keys_of (tc s)) then tver s else S (tver s) in
      ({| tc := c'; tver := ver'; titers := titers s |}, TOut r)
  | ListBegin tid =>
      let it := match m with
                | Snapshot => ISnap (rev (items (tc s)))
                | Lazy => ILazy (tver s) 0
                end in
      ({| tc := tc s; tver := tver s; titers := iter_set tid it (titers s) |}, TStarted)
  | ListNext tid =>
      match iter_lookup tid (titers s) with
      | None => (s, TNoIter)
      | Some (ISnap []) => (s, TStop)
      | Some (ISnap (kv :: rest)) =>
          ({| tc := tc s; tver := tver s; titers := iter_set tid (ISnap rest) (titers s) |}, TYield kv)
      | Some (ILazy ver n) =>
          if negb (Nat.eqb ver (tver s)) then (s, TRuntimeError)
          else match nth_error (rev (items (tc s))) n with
               | None => (s, TStop)
               | Some kv =>
                   ({| tc := tc s; tver := tver s; titers := iter_set tid (ILazy ver (S n)) (titers s) |}, TYield kv)
               end
      end
  end.

Definition tinit (n : nat) : tstate := {| tc := empty n; tver := 0; titers := [] |}.

Fixpoint trun (m : listing_mode) (s : tstate) (acts : list action) : list tout :=
  match acts with
  | [] => []
  | a :: acts' => let '(s', r) := tstep m s a in r :: trun m s' acts'
  end.

(* ---- decidable equality on observations, for the correspondence check ---- *)
Definition kv_eqb (a b : N * Z) : bool := N.eqb (fst a) (fst b) && Z.eqb (snd a) (snd b).

Definition out_eqb (a b : out) : bool :=
  match a, b with
  | OVal x, OVal y => Z.eqb x y
  | OKeyError, OKeyError | ODone, ODone | ONone, ONone => true
  | OBool x, OBool y => Bool.eqb x y
  | OLen x, OLen y => Nat.eqb x y
  | OKeys x, OKeys y => list_eqb N.eqb x y
  | OVals x, OVals y => list_eqb Z.eqb x y
  | OItems x, OItems y => list_eqb kv_eqb x y
  | _, _ => false
  end.

Definition obs_eqb (a b : list (out * list (N * Z))) : bool :=
  list_eqb (fun x y => out_eqb (fst x) (fst y) && list_eqb kv_eqb (snd x) (snd y)) a b.

Definition tout_eqb (a b : tout) : bool :=
  match a, b with
  | TOut x, TOut y => out_eqb x y
  | TStarted, TStarted | TStop, TStop | TRuntimeError, TRuntimeError | TNoIter, TNoIter => true
  | TYield x, TYield y => kv_eqb x y
  | _, _ => false
  end.

Record case := { c_cap : nat; c_ops : list op }.
Definition run_case (c : case) := run (empty (c_cap c)) (c_ops c).

Record tcase := { t_cap : nat; t_acts : list action }.
Definition run_tcase (m : listing_mode) (c : tcase) := trun m (tinit (t_cap c)) (t_acts c).
