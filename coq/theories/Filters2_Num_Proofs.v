(* C25, number filters: the model's results agree with exact rational arithmetic (Coq's Q) on the values the operands
   denote.  An int z denotes z, a float holding the short decimal m * 10^-e denotes m / 10^e. *)
From Coq Require Import ZifyBool QArith Qabs.
From LiquidVerif Require Import Prelude PyPrims Filters Filters_Proofs Filters2.
Local Open Scope Z_scope.

Lemma pow10_pos e : 0 < pow10 e.
Proof. unfold pow10. apply Z.pow_pos_nonneg; lia. Qed.

Lemma pow10_S e : pow10 (S e) = 10 * pow10 e.
Proof. unfold pow10. rewrite Nat2Z.inj_succ, Z.pow_succ_r by lia. reflexivity. Qed.

Lemma pow10_add a b : pow10 (a + b) = pow10 a * pow10 b.
Proof. unfold pow10. rewrite Nat2Z.inj_add, Z.pow_add_r by lia. reflexivity. Qed.

Lemma pow10_split e e' : (e' <= e)%nat -> pow10 e = pow10 e' * pow10 (e - e').
Proof. intro H. rewrite <- pow10_add. f_equal. lia. Qed.

Lemma pow10_0 : pow10 0 = 1.
Proof. reflexivity. Qed.

Definition dec_Q (m : Z) (e : nat) : Q := Qmake m (Z.to_pos (pow10 e)).
Definition num_Q (n : num) : Q := dec_Q (mant n) (num_e n).
Definition val_Q (v : val) : Q := match v with VInt z => inject_Z z | VDec m e => dec_Q m e | _ => 0%Q end.
Definition numeric (v : val) : Prop := match v with VInt _ | VDec _ _ => True | _ => False end.

Lemma den_id e : Z.pos (Z.to_pos (pow10 e)) = pow10 e.
Proof. apply Z2Pos.id, pow10_pos. Qed.

(* [dec] and [int] in the names below: dec_Q and inject_Z *)
Lemma Qeq_dec m1 e1 m2 e2 : (dec_Q m1 e1 == dec_Q m2 e2)%Q <-> m1 * pow10 e2 = m2 * pow10 e1.
Proof. unfold Qeq, dec_Q. cbn [Qnum Qden]. rewrite !den_id. tauto. Qed.

Lemma Qle_dec m1 m2 e : (dec_Q m1 e <= dec_Q m2 e)%Q <-> m1 <= m2.
Proof. unfold Qle, dec_Q. cbn [Qnum Qden]. rewrite den_id. pose proof (pow10_pos e). split; intro; nia. Qed.

Lemma Qlt_dec m1 m2 e : (dec_Q m1 e < dec_Q m2 e)%Q <-> m1 < m2.
Proof. unfold Qlt, dec_Q. cbn [Qnum Qden]. rewrite den_id. pose proof (pow10_pos e). split; intro; nia. Qed.

Lemma int_Q z : (inject_Z z == dec_Q z 0)%Q.
Proof. reflexivity. Qed.

Lemma Qle_int_dec z m e : (inject_Z z <= dec_Q m e)%Q <-> z * pow10 e <= m.
Proof. unfold Qle, dec_Q, inject_Z. cbn [Qnum Qden]. rewrite den_id. split; intro; lia. Qed.
Lemma Qlt_dec_int m e z : (dec_Q m e < inject_Z z)%Q <-> m < z * pow10 e.
Proof. unfold Qlt, dec_Q, inject_Z. cbn [Qnum Qden]. rewrite den_id. split; intro; lia. Qed.
Lemma Qle_dec_int m e z : (dec_Q m e <= inject_Z z)%Q <-> m <= z * pow10 e.
Proof. unfold Qle, dec_Q, inject_Z. cbn [Qnum Qden]. rewrite den_id. split; intro; lia. Qed.
Lemma Qlt_int_dec z m e : (inject_Z z < dec_Q m e)%Q <-> z * pow10 e < m.
Proof. unfold Qlt, dec_Q, inject_Z. cbn [Qnum Qden]. rewrite den_id. split; intro; lia. Qed.

(* canonical float form: the value is kept *)
Lemma canon_dec_eq : forall fuel m e, let '(m', e') := canon_dec fuel m e in m' * pow10 e = m * pow10 e'.
Proof.
  induction fuel as [|f IH]; intros m e; cbn [canon_dec]; [reflexivity|].
  destruct e as [|[|e']]; try reflexivity.
  destruct (Z.eqb_spec (m mod 10) 0) as [Hm|Hm]; [|reflexivity].
  specialize (IH (m / 10) (S e')). destruct (canon_dec f (m / 10) (S e')) as [m'' e''].
  rewrite (pow10_S (S e')). assert (Hd : m = 10 * (m / 10)) by (apply Z.div_exact; lia).
  remember (m / 10) as d eqn:Ed. clear Ed Hm. subst m. nia.
Qed.

Lemma mk_dec_Q m e : numeric (mk_dec m e) /\ (val_Q (mk_dec m e) == dec_Q m e)%Q.
Proof.
  unfold mk_dec. destruct e as [|e].
  - split; [exact I|]. cbn [val_Q]. apply Qeq_dec. rewrite pow10_0. change (pow10 1) with 10. ring.
  - pose proof (canon_dec_eq (S e) m (S e)) as H. destruct (canon_dec (S e) m (S e)) as [m' e'].
    split; [exact I|]. cbn [val_Q]. apply Qeq_dec. exact H.
Qed.

Lemma num_val_Q n : numeric (num_val n) /\ (val_Q (num_val n) == num_Q n)%Q.
Proof. destruct n as [z|m e]; [split; [exact I|reflexivity]|apply mk_dec_Q]. Qed.

Lemma scale_eq n e : scale n e = mant n * pow10 (e - num_e n).
Proof. destruct n; cbn [scale mant num_e]; [rewrite Nat.sub_0_r|]; reflexivity. Qed.

Lemma dec_Q_scale n e : (num_e n <= e)%nat -> (dec_Q (scale n e) e == num_Q n)%Q.
Proof.
  intro H. unfold num_Q. apply Qeq_dec. rewrite scale_eq, (pow10_split e (num_e n) H). ring.
Qed.

Lemma dec_Q_plus m1 m2 e : (dec_Q (m1 + m2) e == dec_Q m1 e + dec_Q m2 e)%Q.
Proof. unfold Qeq, Qplus, dec_Q. cbn [Qnum Qden]. rewrite Pos2Z.inj_mul. ring. Qed.
Lemma dec_Q_minus m1 m2 e : (dec_Q (m1 - m2) e == dec_Q m1 e - dec_Q m2 e)%Q.
Proof. unfold Qeq, Qminus, Qplus, Qopp, dec_Q. cbn [Qnum Qden]. rewrite Pos2Z.inj_mul. ring. Qed.
Lemma dec_Q_mult m1 e1 m2 e2 : (dec_Q (m1 * m2) (e1 + e2) == dec_Q m1 e1 * dec_Q m2 e2)%Q.
Proof. unfold Qeq, Qmult, dec_Q. cbn [Qnum Qden]. rewrite Pos2Z.inj_mul, !den_id, pow10_add. ring. Qed.

Lemma scale_self n : scale n (num_e n) = mant n.
Proof. rewrite scale_eq, Nat.sub_diag, pow10_0. ring. Qed.

(* plus and minus bring both operands to the larger of the two scales and work on the scaled mantissas (two ints: scale
   0, and the result stays an int); so whatever [op] does on mantissas of one scale, arith does on the values *)
Lemma arith_Q op (Qop : Q -> Q -> Q) :
  (forall m1 m2 e, dec_Q (op m1 m2) e == Qop (dec_Q m1 e) (dec_Q m2 e))%Q ->
  Proper (Qeq ==> Qeq ==> Qeq) Qop ->
  forall a b, numeric (arith op false a b) /\ (val_Q (arith op false a b) == Qop (num_Q a) (num_Q b))%Q.
Proof.
  intros Hop Hproper a b.
  assert (H : numeric (arith op false a b) /\
              (val_Q (arith op false a b) ==
               dec_Q (op (scale a (Nat.max (num_e a) (num_e b))) (scale b (Nat.max (num_e a) (num_e b))))
                     (Nat.max (num_e a) (num_e b)))%Q).
  { destruct a as [x|ma ea], b as [y|mb eb]; try apply mk_dec_Q.
    split; [exact I|]. cbn. rewrite !Z.mul_1_r. reflexivity. }
  destruct H as [Hn Hq]. split; [exact Hn|].
  rewrite Hq, Hop, !dec_Q_scale; [reflexivity|apply Nat.le_max_r|apply Nat.le_max_l].
Qed.

(* times multiplies the mantissas and adds the scales *)
Lemma arith_mul_Q a b :
  numeric (arith Z.mul true a b) /\ (val_Q (arith Z.mul true a b) == num_Q a * num_Q b)%Q.
Proof.
  assert (H : numeric (arith Z.mul true a b) /\
              (val_Q (arith Z.mul true a b) == dec_Q (mant a * mant b) (num_e a + num_e b))%Q).
  { destruct a as [x|ma ea], b as [y|mb eb]; [split; [exact I|reflexivity]|..];
      cbn [arith]; rewrite !scale_self; apply mk_dec_Q. }
  destruct H as [Hn Hq]. split; [exact Hn|]. rewrite Hq. apply dec_Q_mult.
Qed.

Lemma num_leb_spec a b : BoolSpec (num_Q a <= num_Q b)%Q (num_Q b < num_Q a)%Q (num_leb a b).
Proof.
  unfold num_leb. set (e := Nat.max (num_e a) (num_e b)).
  assert (Ha : (dec_Q (scale a e) e == num_Q a)%Q) by apply dec_Q_scale, Nat.le_max_l.
  assert (Hb : (dec_Q (scale b e) e == num_Q b)%Q) by apply dec_Q_scale, Nat.le_max_r.
  destruct (Z.leb_spec (scale a e) (scale b e)); constructor; rewrite <- Ha, <- Hb; [apply Qle_dec|apply Qlt_dec]; assumption.
Qed.

Lemma dec_Q_floor m e : (inject_Z (m / pow10 e) <= dec_Q m e /\ dec_Q m e < inject_Z (m / pow10 e + 1))%Q.
Proof.
  rewrite Qle_int_dec, Qlt_dec_int. pose proof (pow10_pos e) as Hp.
  pose proof (Z.mul_div_le m (pow10 e) Hp). pose proof (Z.mul_succ_div_gt m (pow10 e) Hp). lia.
Qed.

Lemma dec_Q_ceil m e :
  (inject_Z (- (- m / pow10 e) - 1) < dec_Q m e /\ dec_Q m e <= inject_Z (- (- m / pow10 e)))%Q.
Proof.
  rewrite Qlt_int_dec, Qle_dec_int. pose proof (pow10_pos e) as Hp.
  pose proof (Z.mul_div_le (- m) (pow10 e) Hp). pose proof (Z.mul_succ_div_gt (- m) (pow10 e) Hp). lia.
Qed.

(* multiplying by 10^n moves the decimal point n places *)
Lemma dec_Q_shift m e n : (n <= e)%nat -> (dec_Q m e * inject_Z (pow10 n) == dec_Q m (e - n))%Q.
Proof.
  intro H. unfold Qeq, Qmult, dec_Q, inject_Z. cbn [Qnum Qden].
  rewrite Pos2Z.inj_mul, !den_id, (pow10_split e n H). ring.
Qed.

(* the integer nearest to m / p, exact halves to the even neighbour *)
Lemma round_half_even_spec m p : 0 < p ->
  let z := round_half_even m p in
  2 * Z.abs (m - z * p) <= p /\ (2 * Z.abs (m - z * p) = p -> Z.even z = true).
Proof.
  intros Hp z. unfold z, round_half_even.
  pose proof (Z.div_mod m p ltac:(lia)) as Hdm. pose proof (Z.mod_pos_bound m p Hp) as Hb.
  set (q := m / p) in *. set (r := m mod p) in *.
  destruct (Z.ltb_spec (2 * r) p).
  - split; [lia|]. intro. lia.
  - destruct (Z.ltb_spec p (2 * r)).
    + split; [lia|]. intro. lia.
    + destruct (Z.even q) eqn:Ev.
      * split; [lia|]. intro. exact Ev.
      * split; [lia|]. intro. rewrite Z.even_add, Ev. reflexivity.
Qed.

Lemma Qabs_half_le m e z : (Qabs (dec_Q m e - inject_Z z) <= 1 # 2)%Q <-> 2 * Z.abs (m - z * pow10 e) <= pow10 e.
Proof.
  unfold Qle, Qabs, Qminus, Qplus, Qopp, dec_Q, inject_Z. cbn [Qnum Qden].
  rewrite Pos.mul_1_r, den_id. replace (m * 1 + - z * pow10 e) with (m - z * pow10 e) by ring. split; intro; lia.
Qed.
Lemma Qabs_half_eq m e z : (Qabs (dec_Q m e - inject_Z z) == 1 # 2)%Q <-> 2 * Z.abs (m - z * pow10 e) = pow10 e.
Proof.
  unfold Qeq, Qabs, Qminus, Qplus, Qopp, dec_Q, inject_Z. cbn [Qnum Qden].
  rewrite Pos.mul_1_r, den_id. replace (m * 1 + - z * pow10 e) with (m - z * pow10 e) by ring. split; intro; lia.
Qed.

(* with a decimal among the operands divided_by looks for the terminating quotient of the two mantissas, each scaled by
   the other's exponent *)
Lemma divided_by2_dec v o : let a := math_in v in let b := math_in o in
  is_int a && is_int b = false ->
  f_divided_by2 v o =
  let n := mant a * pow10 (num_e b) in let d := mant b * pow10 (num_e a) in
  if d =? 0 then FErr EFilterArg
  else match find_quot (S DIV_DIGITS) 0 n d with Some (q, k) => FOk (mk_dec q k) | None => FErr EOtherForeign end.
Proof.
  intros a b. subst a b. unfold f_divided_by2.
  destruct (math_in v), (math_in o); cbn [is_int andb]; intro H; try discriminate; reflexivity.
Qed.

(* find_quot tries k, k+1, ... decimal places: the answer (q, k+j) means q = n * 10^j / d with no remainder *)
Lemma find_quot_sound d : d <> 0 -> forall fuel k n q k',
  find_quot fuel k n d = Some (q, k') -> exists j, k' = (k + j)%nat /\ q * d = n * pow10 j.
Proof.
  intros Hd. induction fuel as [|f IH]; intros k n q k' H; cbn [find_quot] in H; [discriminate|].
  destruct (Z.eqb_spec (n mod d) 0) as [Hm|Hm].
  - injection H as <- <-. exists 0%nat. split; [lia|]. rewrite pow10_0.
    pose proof (proj2 (Z.div_exact n d Hd) Hm). lia.
  - destruct (IH _ _ _ _ H) as [j [-> Hj]]. exists (S j). split; [lia|]. rewrite pow10_S. lia.
Qed.

(* a quotient that find_quot returns is exact *)
Lemma find_quot_Q a b fuel q k :
  mant b * pow10 (num_e a) <> 0 ->
  find_quot fuel 0 (mant a * pow10 (num_e b)) (mant b * pow10 (num_e a)) = Some (q, k) ->
  numeric (mk_dec q k) /\ (val_Q (mk_dec q k) * num_Q b == num_Q a)%Q.
Proof.
  intros Hd Ef. destruct (find_quot_sound _ Hd _ _ _ _ _ Ef) as [j [-> Hj]]. cbn [Nat.add].
  destruct (mk_dec_Q q j) as [Hnum Hq]. split; [exact Hnum|]. rewrite Hq.
  unfold num_Q, Qeq, Qmult, dec_Q. cbn [Qnum Qden]. rewrite Pos2Z.inj_mul, !den_id. nia.
Qed.

Lemma scale_zero n e : scale n e = 0 <-> mant n = 0.
Proof. rewrite scale_eq. pose proof (pow10_pos (e - num_e n)). nia. Qed.

(* floor division and its remainder, read on two decimals of one scale: the remainder has the sign of the divisor *)
Lemma dec_Q_div_mod A B e : B <> 0 ->
  (dec_Q A e == dec_Q B e * inject_Z (A / B) + dec_Q (A mod B) e)%Q /\
  ((0 <= dec_Q (A mod B) e /\ dec_Q (A mod B) e < dec_Q B e)%Q \/
   (dec_Q B e < dec_Q (A mod B) e /\ dec_Q (A mod B) e <= 0)%Q).
Proof.
  intro HB. split.
  - rewrite (Z.div_mod A B HB) at 1. unfold Qeq, Qplus, Qmult, dec_Q, inject_Z. cbn [Qnum Qden].
    rewrite !Pos2Z.inj_mul. ring.
  - assert (H0 : (0 == dec_Q 0 e)%Q) by reflexivity.
    rewrite H0, !Qle_dec, !Qlt_dec.
    exact (Z.mod_bound_or A B HB).
Qed.

(* modulo works on the mantissas at the larger of the two scales e (two ints: e = 0, and the result is an int) *)
Lemma modulo2_scaled v o :
  let a := math_in v in let b := math_in o in let e := Nat.max (num_e a) (num_e b) in
  scale b e <> 0 ->
  exists r, f_modulo2 v o = FOk r /\ numeric r /\ (val_Q r == dec_Q (scale a e mod scale b e) e)%Q /\
            (is_int a && is_int b = true -> exists z, r = VInt z).
Proof.
  intros a b e. subst a b e. unfold f_modulo2. generalize (math_in v) (math_in o). intros a b Hb.
  destruct a as [x|ma ea], b as [y|mb eb].
  1: { cbn in Hb |- *. rewrite !Z.mul_1_r in *. destruct (Z.eqb_spec y 0); [contradiction|].
       eexists. split; [reflexivity|]. split; [exact I|]. split; [reflexivity|]. eexists. reflexivity. }
  all: cbv zeta; rewrite (proj2 (Z.eqb_neq _ _) Hb); eexists; split; [reflexivity|];
    split; [apply mk_dec_Q|split; [apply mk_dec_Q|discriminate]].
Qed.
