(* C21 on the real token kinds: the tag audit is total; the constructs whose content the
   lexer swallows contribute no tag; a source the block parser of TagTree.v accepts is reported silent except for the
   break / continue tags standing outside every block that lists them. *)
From LiquidVerif Require Import Prelude TagAudit TagAudit_Proofs TagWalk.
From LiquidVerif Require TagTree TagTree_Proofs.
Module TT := TagTree.

(* `if token.kind != TOKEN_TAG: continue` *)
Definition is_tag (t : tok) : bool := match t with TTag _ => true | _ => false end.

(* C21 clause 1 on real token kinds: the analysis of ANY token list returns a report *)
Theorem analyze_total e toks : exists r, analyze e toks = Ok r.
Proof. apply audit_total. Qed.

Theorem analyze_items_total e its : exists r, analyze_items e its = Ok r.
Proof. apply analyze_total. Qed.

Lemma names_of_app a b : names_of (a ++ b) = names_of a ++ names_of b.
Proof. unfold names_of. apply flat_map_app. Qed.

Lemma names_of_cons t l : names_of (t :: l) = tag_name t ++ names_of l.
Proof. reflexivity. Qed.

(* what the lexer's treatment of the source constructs leaves for the analysis: the names of the tags written at template
   level, `comment` / `endcomment` around a comment block, `#`, `liquid`; nothing from inside raw, doc and comment blocks,
   nothing from the lines of a liquid tag, nothing after an unclosed comment tag *)
Theorem names_of_lex its : names_of (lex_items its) = item_names its.
Proof.
  induction its as [|it r IH]; [reflexivity|].
  destruct it as [| |n he|b|b|b| | |ls]; cbn [lex_items item_names];
    rewrite ?names_of_cons, ?names_of_app, ?names_of_cons, ?IH; cbn [tag_name app]; try reflexivity.
  - destruct he; reflexivity.
  - destruct ls; reflexivity.
Qed.

Corollary analyze_items_names e its : analyze_items e its = audit e (item_names its).
Proof. unfold analyze_items, analyze. rewrite names_of_lex. reflexivity. Qed.

Definition add_unexpected (r : report) (xs : list str) : report :=
  {| unclosed := unclosed r; unexpected := unexpected r ++ xs; unknown := unknown r |}.

Lemma add_unexpected_nil r : add_unexpected r [] = r.
Proof. destruct r. unfold add_unexpected. cbn. rewrite app_nil_r. reflexivity. Qed.

Lemma add_unexpected_app r a b : add_unexpected (add_unexpected r a) b = add_unexpected r (a ++ b).
Proof. unfold add_unexpected. cbn. rewrite app_assoc. reflexivity. Qed.

(* a break / continue that some block lists, standing outside every such block, is called unexpected *)
Lemma classify_stray e t st r :
  is_loop_interrupt t = true -> enclosing e t <> [] -> existsb (fun b => mem b st) (enclosing e t) = false ->
  classify e t st r = add_unexpected r [t].
Proof.
  intros Hi Hne Hex. unfold classify. rewrite (interrupt_not_registered_tag e t Hi).
  destruct (enclosing e t); [contradiction|]. rewrite Hex. reflexivity.
Qed.

Section AuditQuiet.
  Variable e : tagenv.
  Hypothesis Hwf : wf_envb e = true.

  (* every end-looking token of a wn2 sequence is a registered end tag *)
  Lemma wn2_end_tokens : forall toks stack, wn2_from e toks stack = true ->
    forall t, In t toks -> starts_end t = true -> In t (registered_ends e).
  Proof.
    induction toks as [|t rest IH]; intros stack Hwn u Hin Hse; [destruct Hin|].
    cbn [wn2_from] in Hwn.
    destruct (mem t (block_names e)) eqn:Eb.
    - destruct Hin as [<-|Hin]; [|exact (IH _ Hwn u Hin Hse)].
      rewrite (wf_block_noend e Hwf t) in Hse by (apply mem_In; exact Eb). discriminate.
    - destruct (mem t (registered_ends e)) eqn:Ee.
      + destruct Hin as [<-|Hin]; [apply mem_In; exact Ee|].
        destruct stack as [|top stack']; [discriminate|].
        destruct (end_of (blocks e) top) as [en|]; [|discriminate].
        destruct (str_eqb en t); [|discriminate]. exact (IH _ Hwn u Hin Hse).
      + destruct (is_loop_interrupt t) eqn:Ei.
        * destruct Hin as [<-|Hin]; [|exact (IH _ Hwn u Hin Hse)].
          rewrite (interrupt_noend t Ei) in Hse. discriminate.
        * destruct (mem t (inlines e)) eqn:Eil.
          -- destruct Hin as [<-|Hin]; [|exact (IH _ Hwn u Hin Hse)].
             rewrite (wf_inline_noend e Hwf t) in Hse by (apply mem_In; exact Eil). discriminate.
          -- destruct stack as [|top stack']; [discriminate|].
             destruct (mem top (enclosing e t)) eqn:Een; [|discriminate].
             destruct Hin as [<-|Hin]; [|exact (IH _ Hwn u Hin Hse)].
             rewrite (wf_inner_noend e Hwf t (enclosing_inner e top t Een)) in Hse. discriminate.
  Qed.

  (* the loop on a wn2 sequence, given that it tells block tags and end tags apart as the grammar does: the stack is
     emptied and the ONLY reports are the stray break / continue tags *)
  Lemma loop_quiet bt et :
    (forall x, mem x bt = mem x (block_names e)) ->
    forall toks stack r,
    (forall t, In t toks -> mem t et = mem t (registered_ends e)) ->
    (forall t, In t toks -> is_loop_interrupt t = true -> enclosing e t <> []) ->
    wn2_from e toks stack = true ->
    audit_loop false e bt et toks stack r = Ok ([], add_unexpected r (stray_interrupts e toks stack)).
  Proof.
    intros Hbt. induction toks as [|t rest IH]; intros stack r Het Hil Hwn.
    - cbn [wn2_from] in Hwn. destruct stack; [|discriminate]. cbn. rewrite add_unexpected_nil. reflexivity.
    - specialize (fun stack r => IH stack r (fun u Hu => Het u (or_intror Hu)) (fun u Hu => Hil u (or_intror Hu))).
      cbn [wn2_from] in Hwn. cbn [audit_loop stray_interrupts]. rewrite Hbt, (Het t (or_introl eq_refl)).
      destruct (mem t (block_names e)) eqn:Eb.
      + assert (Hb : In t (block_names e)) by (apply mem_In; exact Eb).
        rewrite classify_registered; [apply IH, Hwn | apply in_or_app; left; exact Hb | apply (wf_block_not_interrupt e Hwf), Hb].
      + destruct (mem t (registered_ends e)) eqn:Ee.
        * destruct (registered_end_shape e Hwf t (proj1 (mem_In _ _) Ee)) as (n & Hn & ->).
          destruct stack as [|top stack']; [discriminate|].
          destruct (end_of (blocks e) top) as [en|] eqn:Eo; [|discriminate].
          destruct (str_eqb_spec en (s_end ++ n)) as [E|_]; [|discriminate].
          apply (end_of_shape e Hwf) in Eo. rewrite Eo in E. injection E as E. subst n.
          unfold pop_report. rewrite drop3_app, str_eqb_refl. apply IH, Hwn.
        * destruct (is_loop_interrupt t) eqn:Ei.
          -- destruct (existsb (fun b => mem b stack) (enclosing e t)) eqn:Eex.
             ++ rewrite classify_enclosed by exact Eex. apply IH, Hwn.
             ++ rewrite (classify_stray e t stack r Ei (Hil t (or_introl eq_refl) Ei) Eex), IH by exact Hwn.
                rewrite add_unexpected_app. reflexivity.
          -- destruct (mem t (inlines e)) eqn:Eil.
             ++ rewrite classify_registered; [apply IH, Hwn | apply in_or_app; right; apply mem_In; exact Eil | exact Ei].
             ++ destruct stack as [|top stack']; [discriminate|].
                destruct (mem top (enclosing e t)) eqn:Een; [|discriminate].
                rewrite classify_enclosed; [apply IH, Hwn|].
                apply existsb_exists. exists top. split; [apply mem_In; exact Een|].
                cbn [mem]. rewrite str_eqb_refl. reflexivity.
  Qed.

  (* the whole audit on a wn2 sequence *)
  Theorem audit_quiet toks :
    (forall t, In t toks -> is_loop_interrupt t = true -> enclosing e t <> []) ->
    wn2_from e toks [] = true ->
    audit e toks = Ok {| unclosed := []; unexpected := stray_interrupts e toks []; unknown := [] |}.
  Proof.
    intros Hil Hwn. unfold audit, audit_gen.
    set (et := dedup (end_tags_of toks)).
    (* the end tags the audit collects from the source are end tags of registered blocks *)
    assert (Hreg : forall x, mem x et = true -> exists n, In n (block_names e) /\ x = s_end ++ n).
    { intros x Hx. apply mem_end_tags in Hx as [Hin Hse].
      exact (registered_end_shape e Hwf x (wn2_end_tokens toks [] Hwn x Hin Hse)). }
    assert (Het : forall t, In t toks -> mem t et = mem t (registered_ends e)).
    { intros t Hin. apply eq_true_iff_eq. unfold et. rewrite mem_end_tags, mem_In. split.
      - intros [_ Hse]. exact (wn2_end_tokens toks [] Hwn t Hin Hse).
      - intro Hr. split; [exact Hin|]. destruct (registered_end_shape e Hwf t Hr) as (n & _ & ->). reflexivity. }
    assert (Hbt : forall x, mem x (map drop3 et ++ block_names e) = mem x (block_names e)).
    { intro x. rewrite mem_app. destruct (mem x (map drop3 et)) eqn:Em; [|reflexivity].
      apply mem_In, in_map_iff in Em as (u & <- & Hu). apply mem_In in Hu.
      destruct (Hreg u Hu) as (n & Hn & ->). symmetry. apply mem_In. exact Hn. }
    rewrite (loop_quiet _ et Hbt toks [] empty_report Het Hil Hwn).
    cbn [bind fst snd rev unclosed unexpected unknown empty_report add_unexpected app].
    rewrite flat_map_nil; [reflexivity|].
    intros t Ht. apply mem_In in Ht. destruct (Hreg t Ht) as (n & Hn & ->).
    destruct (block_end_registered e Hwf n Hn) as (_ & Hr & _).
    unfold bad_end. rewrite drop3_app, (wf_block_not_inline e Hwf n Hn), Hr. reflexivity.
  Qed.

  (* the grammar of TagAudit.v, where break / continue must stand inside a block that lists them, is wn2 without strays *)
  Lemma wellnested_wn2 : forall toks stack, wellnested_from e toks stack = true ->
    wn2_from e toks stack = true /\ stray_interrupts e toks stack = [] /\
    forall t, In t toks -> is_loop_interrupt t = true -> enclosing e t <> [].
  Proof.
    induction toks as [|t rest IH]; intros stack Hwn.
    - split; [exact Hwn|split; [reflexivity|intros t []]].
    - cbn [wellnested_from] in Hwn. cbn [wn2_from stray_interrupts].
      (* only a token that reaches the break / continue case of the grammar is a break or a continue *)
      assert (Hhd : forall stack', wellnested_from e rest stack' = true ->
                (is_loop_interrupt t = true -> enclosing e t <> []) ->
                wn2_from e rest stack' = true /\ stray_interrupts e rest stack' = [] /\
                forall u, In u (t :: rest) -> is_loop_interrupt u = true -> enclosing e u <> []).
      { intros stack' Hr Ht. destruct (IH stack' Hr) as (A & B & C). split; [exact A|split; [exact B|]].
        intros u [<-|Hu]; [exact Ht|exact (C u Hu)]. }
      destruct (mem t (block_names e)) eqn:Eb.
      + apply Hhd; [exact Hwn|]. intro Hi.
        rewrite (wf_block_not_interrupt e Hwf t) in Hi by (apply mem_In; exact Eb). discriminate.
      + destruct (mem t (registered_ends e)) eqn:Ee.
        * destruct stack as [|top stack']; [discriminate|]. destruct (end_of (blocks e) top) as [en|]; [|discriminate].
          destruct (str_eqb en t); [|discriminate]. apply Hhd; [exact Hwn|]. intro Hi.
          destruct (registered_end_shape e Hwf t (proj1 (mem_In _ _) Ee)) as (n & _ & ->).
          apply interrupt_noend in Hi. discriminate.
        * destruct (is_loop_interrupt t) eqn:Ei.
          -- destruct (existsb (fun b => mem b stack) (enclosing e t)) eqn:Eex; [|discriminate].
             apply Hhd; [exact Hwn|]. intros _ E. rewrite E in Eex. discriminate.
          -- destruct (mem t (inlines e)); [apply Hhd; [exact Hwn|discriminate]|].
             destruct stack as [|top stack']; [discriminate|].
             destruct (mem top (enclosing e t)); [apply Hhd; [exact Hwn|discriminate]|discriminate].
  Qed.
End AuditQuiet.

Section Parse.
  Variable e : tagenv.
  Variable pb : list (str * list str).
  Variable pi : list str.
  Hypothesis Hc : consistentb e pb pi = true.
  Let kind_of := kind_from pb pi.

  Let consistent_parts : wf_envb e = true
        /\ forallb (fun bs => mem (fst bs) (block_names e)
                              && forallb (fun s => mem (fst bs) (enclosing e s)
                                                   && negb (mem s (block_names e)) && negb (mem s (registered_ends e))
                                                   && negb (is_loop_interrupt s) && negb (mem s (inlines e))) (snd bs)) pb = true
        /\ forallb (fun n => mem n (inlines e) && negb (mem n (block_names e))) pi = true
        /\ mem s_comment (block_names e) = true
        /\ match end_of (blocks e) s_comment with Some en => str_eqb en s_endcomment | None => false end = true
        /\ match enclosing e s_break with [] => false | _ => true end = true
        /\ match enclosing e s_continue with [] => false | _ => true end = true.
  Proof. unfold consistentb in Hc. do 6 (apply andb_true_iff in Hc as [Hc ?]). repeat split; assumption. Qed.

  Lemma c_wf : wf_envb e = true.
  Proof. apply consistent_parts. Qed.

  Lemma c_interrupts t : is_loop_interrupt t = true -> enclosing e t <> [].
  Proof.
    destruct consistent_parts as (_ & _ & _ & _ & _ & Hb & Hk). unfold is_loop_interrupt. rewrite orb_true_iff, !str_eqb_eq.
    intros [->| ->] E; [rewrite E in Hb|rewrite E in Hk]; discriminate.
  Qed.

  Lemma c_block n secs : kind_of n = TT.TBlock secs ->
    In n (block_names e) /\
    forall s, TT.mem s secs = true ->
      mem n (enclosing e s) = true /\ mem s (block_names e) = false /\ mem s (registered_ends e) = false /\
      is_loop_interrupt s = false /\ mem s (inlines e) = false.
  Proof.
    unfold kind_of, kind_from. destruct (alookup n pb) as [secs'|] eqn:E; [|destruct (TT.mem n pi); discriminate].
    intro H. inversion H; subst secs'. clear H. apply alookup_In in E.
    destruct consistent_parts as (_ & Hb & _). pose proof (proj1 (forallb_forall _ _) Hb _ E) as H. cbn [fst snd] in H.
    apply andb_true_iff in H. destruct H as [H1 H2]. split; [apply mem_In; exact H1|].
    intros s Hs. apply TagTree_Proofs.mem_true_iff in Hs. pose proof (proj1 (forallb_forall _ _) H2 _ Hs) as H.
    repeat (apply andb_true_iff in H as [H ?]). repeat split; try apply negb_true_iff; assumption.
  Qed.

  Lemma c_inline n : kind_of n = TT.TInline -> In n (inlines e) /\ mem n (block_names e) = false.
  Proof.
    unfold kind_of, kind_from. destruct (alookup n pb); [discriminate|].
    destruct (TT.mem n pi) eqn:E; [|discriminate]. intros _. apply TagTree_Proofs.mem_true_iff in E.
    destruct consistent_parts as (_ & _ & Hi & _). pose proof (proj1 (forallb_forall _ _) Hi _ E) as H.
    rewrite andb_true_iff, negb_true_iff in H. destruct H as [H1 H2]. split; [apply mem_In; exact H1|exact H2].
  Qed.

  (* what the parser consumes for a list of nodes leaves the grammar where it was, whatever the stack; for the sections
     of a block the same below the block's own stack entry *)
  Definition balanced (pre : list TT.ttok) : Prop :=
    forall more stack, wn2_from e (tnames pre ++ more) stack = wn2_from e more stack.
  Definition sbalanced (n : str) (pre : list TT.ttok) : Prop :=
    forall more stack, wn2_from e (tnames pre ++ more) (n :: stack) = wn2_from e more (n :: stack).

  Lemma tnames_app a b : tnames (a ++ b) = tnames a ++ tnames b.
  Proof. unfold tnames. apply flat_map_app. Qed.

  Lemma balanced_nil : balanced [].
  Proof. intros more stack. reflexivity. Qed.

  Lemma balanced_app a b : balanced a -> balanced b -> balanced (a ++ b).
  Proof. intros Ha Hb more stack. rewrite tnames_app, <- app_assoc, Ha. apply Hb. Qed.

  Lemma balanced_inert t : tnames1 t = [] -> balanced [t].
  Proof. intros H more stack. unfold tnames. cbn [flat_map]. rewrite H. reflexivity. Qed.

  (* parser and audit each spell "end" ++ name on their own (TT.endname n, s_end ++ n; s_endcomment): tied only by conversion *)
  Lemma balanced_comment s : balanced [TT.KComment s].
  Proof.
    intros more stack. unfold tnames. cbn [flat_map tnames1 app].
    destruct consistent_parts as (_ & _ & _ & Hcb & Hce & _).
    assert (Hn : In s_comment (block_names e)) by (apply mem_In; exact Hcb).
    destruct (block_end_registered e c_wf _ Hn) as (E1 & E2 & E3).
    assert (Een : s_endcomment = s_end ++ s_comment) by reflexivity.
    cbn [wn2_from]. rewrite Hcb, Een, E1, E2, E3, str_eqb_refl. reflexivity.
  Qed.

  Lemma balanced_inline n x : kind_of n = TT.TInline -> balanced [TT.KTag n x].
  Proof.
    intros Hk more stack. destruct (c_inline n Hk) as [Hi Hb].
    unfold tnames. cbn [flat_map tnames1 app wn2_from]. rewrite Hb, (wf_inline_not_end e c_wf n Hi).
    destruct (is_loop_interrupt n); [reflexivity|]. replace (mem n (inlines e)) with true by (symmetry; apply mem_In, Hi). reflexivity.
  Qed.

  Lemma balanced_block n x secs body sect y :
    kind_of n = TT.TBlock secs -> balanced body -> sbalanced n sect ->
    balanced (TT.KTag n x :: body ++ sect ++ [TT.KTag (TT.endname n) y]).
  Proof.
    intros Hk Hb Hs more stack. destruct (c_block n secs Hk) as [Hn _].
    destruct (block_end_registered e c_wf _ Hn) as (E1 & E2 & E3).
    change (TT.KTag n x :: body ++ sect ++ [TT.KTag (TT.endname n) y]) with ([TT.KTag n x] ++ body ++ sect ++ [TT.KTag (TT.endname n) y]).
    rewrite !tnames_app, <- !app_assoc. unfold tnames at 1. cbn [flat_map tnames1 app]. cbn [wn2_from].
    replace (mem n (block_names e)) with true by (symmetry; apply mem_In, Hn).
    rewrite Hb, Hs. unfold tnames. cbn [flat_map tnames1 app wn2_from].
    change (TT.endname n) with (s_end ++ n). rewrite E1, E2, E3, str_eqb_refl. reflexivity.
  Qed.

  Lemma sbalanced_nil n : sbalanced n [].
  Proof. intros more stack. reflexivity. Qed.

  Lemma sbalanced_section n secs sn se body rest :
    kind_of n = TT.TBlock secs -> TT.mem sn secs = true -> balanced body -> sbalanced n rest ->
    sbalanced n (TT.KTag sn se :: body ++ rest).
  Proof.
    intros Hk Hsn Hb Hr more stack. destruct (c_block n secs Hk) as [_ Hs]. destruct (Hs sn Hsn) as (A & B & D & F & G).
    change (TT.KTag sn se :: body ++ rest) with ([TT.KTag sn se] ++ body ++ rest).
    rewrite !tnames_app, <- !app_assoc. unfold tnames at 1. cbn [flat_map tnames1 app wn2_from].
    rewrite B, D, F, G, A, Hb. apply Hr.
  Qed.

  Definition rec_balanced (rec : list TT.ttok -> res (list TT.node * list TT.ttok)) : Prop :=
    forall ts ns rest, rec ts = Ok (ns, rest) -> exists pre, ts = pre ++ rest /\ balanced pre.

  Lemma psections_balanced n secs rec : kind_of n = TT.TBlock secs -> rec_balanced rec ->
    forall g ts ss rest, TT.psections rec secs g ts = Ok (ss, rest) ->
    exists pre, ts = pre ++ rest /\ sbalanced n pre.
  Proof.
    intros Hk Hrec. induction g as [|g IH]; intros ts ss rest H; [discriminate|].
    assert (Hnone : Ok ([], ts) = Ok (ss, rest) -> exists pre, ts = pre ++ rest /\ sbalanced n pre).
    { intro E. injection E as _ <-. exists []. split; [reflexivity|apply sbalanced_nil]. }
    destruct ts as [|[s|s|s|s|sn se] r']; try exact (Hnone H).
    cbn [TT.psections] in H. destruct (TT.mem sn secs) eqn:Em; [|exact (Hnone H)].
    apply bind_ok in H as ([sb rb] & Er & H). apply bind_ok in H as ([more rm] & Ep & H). cbn [fst snd] in H, Ep.
    injection H as _ <-. destruct (Hrec _ _ _ Er) as (pre_body & -> & Hb1). destruct (IH _ _ _ Ep) as (pre_more & -> & Hm).
    exists (TT.KTag sn se :: pre_body ++ pre_more). split; [cbn [app]; rewrite <- app_assoc; reflexivity|].
    eapply sbalanced_section; eassumption.
  Qed.

  Lemma parse_until_balanced : forall f stops, rec_balanced (TT.parse_until kind_of f stops).
  Proof.
    induction f as [|f IH]; intros stops ts ns rest H; [discriminate|].
    assert (Hstop : forall ts0, Ok ([], ts0) = Ok (ns, rest) -> exists pre, ts0 = pre ++ rest /\ balanced pre).
    { intros ts0 E. injection E as _ <-. exists []. split; [reflexivity|apply balanced_nil]. }
    destruct ts as [|t r]; [exact (Hstop _ H)|].
    (* a token that is balanced by itself, then the rest of the list *)
    assert (Hstep : forall mk, balanced [t] ->
              (do x <- TT.parse_until kind_of f stops r; Ok (mk (fst x), snd x)) = Ok (ns, rest) ->
              exists pre, t :: r = pre ++ rest /\ balanced pre).
    { intros mk Ht H1. apply bind_ok in H1 as ([ns0 r0] & E & H1). injection H1 as _ <-.
      destruct (IH _ _ _ _ E) as (p & -> & Hp). exists (t :: p). split; [reflexivity|].
      exact (balanced_app [t] p Ht Hp). }
    destruct t as [s|s|s|s|n x].
    - exact (Hstep (cons (TT.NText s)) (balanced_inert (TT.KText s) eq_refl) H).
    - exact (Hstep (cons (TT.NRaw s)) (balanced_inert (TT.KRaw s) eq_refl) H).
    - exact (Hstep (cons (TT.NComment s)) (balanced_comment s) H).
    - exact (Hstep (cons (TT.NOut s)) (balanced_inert (TT.KOut s) eq_refl) H).
    - cbn [TT.parse_until] in H. destruct (TT.mem n stops); [exact (Hstop _ H)|].
      fold kind_of in H. destruct (kind_of n) as [secs| |] eqn:Ek; [|exact (Hstep (cons (TT.NInline n x)) (balanced_inline n x Ek) H)|discriminate].
      apply bind_ok in H as ([b rb] & Eb & H). apply bind_ok in H as ([ss rs] & Es & H). cbn [fst snd] in H, Es.
      destruct rs as [|[s1|s1|s1|s1|en y] r'']; try discriminate.
      destruct (str_eqb_spec en (TT.endname n)) as [->|]; [|discriminate].
      apply bind_ok in H as ([ns0 r0] & Ex & H). injection H as _ <-.
      destruct (IH _ _ _ _ Eb) as (pre_body & -> & Hb1).
      destruct (psections_balanced n secs _ Ek (IH _) _ _ _ _ Es) as (pre_secs & -> & Hs).
      destruct (IH _ _ _ _ Ex) as (pre_rest & -> & Hx).
      exists ((TT.KTag n x :: pre_body ++ pre_secs ++ [TT.KTag (TT.endname n) y]) ++ pre_rest). split.
      + cbn [app]. rewrite <- !app_assoc. reflexivity.
      + apply balanced_app; [eapply balanced_block; eassumption|exact Hx].
  Qed.

  Theorem parsed_is_wn2 ts ns : TT.parse_template kind_of ts = Ok ns -> wn2_from e (tnames ts) [] = true.
  Proof.
    unfold TT.parse_template, bind. destruct (TT.parse_until kind_of (S (length ts)) [] ts) as [[ns0 r0]| |] eqn:E; try discriminate.
    cbn [fst snd]. destruct r0; [|discriminate]. intros _.
    destruct (parse_until_balanced _ _ _ _ _ E) as (pre & Hts & Hb). rewrite app_nil_r in Hts. subst pre.
    pose proof (Hb [] []) as H. rewrite app_nil_r in H. rewrite H. reflexivity.
  Qed.

  (* C21 clause 2 against the parser model: for a source the block parser accepts the analysis reports NOTHING but the
     break / continue tags that stand outside every block listing them *)
  Theorem parsed_report ts ns :
    TT.parse_template kind_of ts = Ok ns ->
    audit e (tnames ts) = Ok {| unclosed := []; unexpected := stray_interrupts e (tnames ts) []; unknown := [] |}.
  Proof. intro H. apply (audit_quiet e c_wf); [intros t _; apply c_interrupts|eapply parsed_is_wn2, H]. Qed.
End Parse.

Lemma tnames_ttoks its : tnames (ttoks_of its) = item_names its.
Proof.
  induction its as [|it r IH]; [reflexivity|].
  destruct it; cbn [ttoks_of item_names]; try reflexivity;
    match goal with |- tnames (?t :: ?l) = _ => change (tnames (t :: l)) with (tnames1 t ++ tnames l) end;
    cbn [tnames1 app]; rewrite ?IH; reflexivity.
Qed.

(* a template -- text, output statements, tags, raw / doc / comment blocks, inline comments, liquid tags -- that the block
   parser accepts is reported silent, except for break / continue outside every block listing them *)
Theorem parsed_items_report e pb pi its ns :
  consistentb e pb pi = true -> TagTree.parse_template (kind_from pb pi) (ttoks_of its) = Ok ns ->
  analyze_items e its = Ok {| unclosed := []; unexpected := stray_interrupts e (item_names its) []; unknown := [] |}.
Proof.
  intros Hc Hp. rewrite analyze_items_names, <- tnames_ttoks. eapply parsed_report; eassumption.
Qed.

Lemma stray_interrupts_are_interrupts e : forall toks stack t, In t (stray_interrupts e toks stack) -> is_loop_interrupt t = true.
Proof.
  induction toks as [|u rest IH]; intros stack t Hin; [destruct Hin|]. cbn [stray_interrupts] in Hin.
  destruct (mem u (block_names e)); [exact (IH _ _ Hin)|].
  destruct (mem u (registered_ends e)); [exact (IH _ _ Hin)|].
  destruct (is_loop_interrupt u) eqn:Ei; [|exact (IH _ _ Hin)].
  apply in_app_or in Hin. destruct Hin as [Hin|Hin]; [|exact (IH _ _ Hin)].
  destruct (existsb _ _); [destruct Hin|]. destruct Hin as [<-|[]]. exact Ei.
Qed.

Lemma stray_none e : forall toks stack, (forall t, In t toks -> is_loop_interrupt t = false) -> stray_interrupts e toks stack = [].
Proof.
  induction toks as [|u rest IH]; intros stack H; [reflexivity|]. cbn [stray_interrupts].
  assert (H' : forall t, In t rest -> is_loop_interrupt t = false) by (intros t Ht; apply H; right; exact Ht).
  destruct (mem u (block_names e)); [apply IH, H'|]. destruct (mem u (registered_ends e)); [apply IH, H'|].
  rewrite (H u (or_introl eq_refl)). apply IH, H'.
Qed.
