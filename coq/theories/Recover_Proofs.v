(* Proofs about Recover.v: progress of the parser (fuel = number of tokens + 1, tokens inside liquid tags included, is never
   exhausted); in warn and lax mode only non-Liquid exceptions leave it; one simulation between two runs of the parser on the
   same tokens, used for warn mode against lax mode (the same tree, one warning per suppressed error) and for a successful
   strict run against any mode; the same two facts for the render loop. *)
From LiquidVerif Require Import Prelude Recover.
Import ListNotations.

(* the tokens left, those inside liquid tags included: what the parser's fuel is measured against *)
Definition len (st : stream) : nat := tsize (toks st).

(* ------------------------------------------------------------------------------------------------ stream facts *)
Lemma tok_size_pos t : 1 <= tok_size t.
Proof. destruct t as [| | | | | |[l|]]; simpl; lia. Qed.

Lemma tsize_liquid l : tok_size (TLiquid (Some l)) = S (tsize l).
Proof. reflexivity. Qed.

Lemma len_adv st : len (adv st) <= len st.
Proof. unfold len, adv; simpl. destruct (toks st); simpl; lia. Qed.

Lemma len_adv_cons st t r : toks st = t :: r -> S (len (adv st)) <= len st.
Proof. unfold len, adv; simpl. intros ->. simpl. pose proof (tok_size_pos t). lia. Qed.

Lemma cur_is_tag_cons n st : cur_is_tag n st = true -> exists n' r, toks st = TTag n' :: r.
Proof. unfold cur_is_tag. destruct (toks st) as [|[] r]; try discriminate. eauto. Qed.

Lemma cur_is_expr_cons st : cur_is_expr st = true -> exists t r, toks st = t :: r.
Proof. unfold cur_is_expr. destruct (toks st) as [|t r]; try discriminate. eauto. Qed.

Lemma tsize_tail t r n : n <= tsize r -> n <= tsize (t :: r).
Proof. cbn [tsize]. lia. Qed.

(* the scans of the parser return a tail of their input *)
Lemma len_eat_to s ts : tsize (eat_to s ts) <= tsize ts.
Proof.
  induction ts as [|t r IH]; [apply le_n|].
  destruct t; cbn [eat_to]; try (apply tsize_tail, IH). destruct (tmem n s); [apply le_n|apply tsize_tail, IH].
Qed.

Lemma len_eat_block s st : len (eat_block s st) <= len st.
Proof. apply len_eat_to. Qed.

Lemma len_skip_junk ts : tsize (skip_junk ts) <= tsize ts.
Proof.
  induction ts as [|t r IH]; [apply le_n|].
  destruct t; cbn [skip_junk]; try (apply tsize_tail, IH); [|apply le_n]. destruct (smem _ _); [apply le_n|apply tsize_tail, IH].
Qed.

(* on a tag the scan stops (doc, enddoc) or goes on *)
Lemma doc_scan_tag n r : doc_scan (TTag n :: r) = doc_scan r \/ snd (doc_scan (TTag n :: r)) = TTag n :: r.
Proof. destruct n; try (left; reflexivity); right; reflexivity. Qed.

Lemma len_doc_scan ts : tsize (snd (doc_scan ts)) <= tsize ts.
Proof.
  induction ts as [|t r IH]; [apply le_n|].
  destruct t; try (cbn [doc_scan]; apply tsize_tail, IH).
  destruct (doc_scan_tag n r) as [H'|H']; rewrite H'; [apply tsize_tail, IH|apply le_n].
Qed.

(* how a when tag looks at the token behind it: a list of alternatives with a bad tail, or anything else.  Spares the proofs
   about p_cases a case per token shape; cbn shows the scrutinee as tl (toks st), hence their `change` to toks (adv st). *)
Lemma when_head ts :
  (exists r0 r2, ts = TExpr (XTailBad r0) :: r2) \/
  (forall X (a : rexpr -> X) (b : X), match ts with TExpr (XTailBad r) :: _ => a r | _ => b end = b).
Proof. destruct ts as [|[| |[]| | | |] r2]; eauto. Qed.

(* ------------------------------------------------------------------------------------------------ progress *)
(* a result is good for n: it is not fuel exhaustion and leaves at most n tokens *)
Definition good {A} (n : nat) (x : pres A) : Prop :=
  match x with POk _ st _ | PErr _ st _ => len st <= n | PFuel => False end.

Lemma good_mono {A} n n' (x : pres A) : n <= n' -> good n x -> good n' x.
Proof. destruct x; simpl; lia. Qed.

Lemma good_pbind {A B} n (x : pres A) (k : A -> stream -> log -> pres B) :
  good n x -> (forall a st l, len st <= n -> good n (k a st l)) -> good n (pbind x k).
Proof. destruct x; simpl; auto. Qed.

Lemma good_handled {B} n m e st l (k : log -> pres B) :
  len st <= n -> (forall l', good n (k l')) -> good n (handled m e st l k).
Proof. unfold handled, handle. destruct m; simpl; auto. Qed.

(* the end tag must be here *)
Lemma good_end_tag {A} n t (a : A) st l : len st <= n -> good n (if cur_is_tag t st then POk a st l else PErr ESyntax st l).
Proof. intros H. destruct (cur_is_tag t st); exact H. Qed.

Lemma inner_len m eat st : match inner m eat st with inl (_, st') | inr (_, st') => len st' <= len st end.
Proof.
  unfold inner. pose proof (len_adv st). destruct (toks st) as [|[] r]; try (simpl; lia).
  - destruct (pexpr m q); destruct eat; simpl; lia.
  - destruct eat; simpl; lia.
Qed.

(* a tag's expression, then k; x is [inner] or stands for it *)
Lemma good_expr {B} n n' (x : rexpr * stream + exn * stream) l (k : rexpr -> stream -> pres B) :
  match x with inl (_, st') | inr (_, st') => len st' <= n' end -> n' <= n ->
  (forall r st2, len st2 <= n' -> good n (k r st2)) ->
  good n (match x with inl (r, st2) => k r st2 | inr (e, st2) => PErr e st2 l end).
Proof. intros Hx Hn Hk. destruct x as [[r st2]|[e st2]]; [apply Hk; exact Hx|simpl; lia]. Qed.

Section Progress.
  Variable m : mode.
  Variable pb : list tname -> stream -> log -> pres block.
  Variable g : nat.
  Hypothesis Hpb : forall stops st l, S (len st) <= g -> good (len st) (pb stops st l).

  Lemma pb_good n stops st l : S (len st) <= g -> len st <= n -> good n (pb stops st l).
  Proof. intros. eapply good_mono; [|apply Hpb]; lia. Qed.

  Lemma elsifs_good : forall k endt st l, S (len st) <= k -> len st <= g -> good (len st) (p_elsifs m pb k endt st l).
  Proof.
    induction k as [|k IH]; intros endt st l Hk Hg; [lia|].
    cbn [p_elsifs]. destruct (cur_is_tag Nelsif st) eqn:Et; [|simpl; lia].
    destruct (cur_is_tag_cons _ _ Et) as (n' & r & Er). pose proof (len_adv_cons _ _ _ Er) as Ha.
    pose proof (inner_len m true (adv st)) as Hi. destruct (inner m true (adv st)) as [[c st']|[e st']].
    - apply (good_mono (len (adv st))); [lia|].
      apply good_pbind; [apply pb_good; lia|]. intros b st2 l2 H2.
      apply good_pbind; [eapply good_mono; [|apply IH]; lia|]. intros oa st3 l3 H3. exact H3.
    - destruct (exn_eqb e ESyntax); [|simpl; lia].
      apply good_handled; [lia|]. intros l'. simpl. pose proof (len_eat_block [endt; Nelsif; Nelse] st'). lia.
  Qed.

  Lemma cases_good : forall k st l, S (len st) <= k -> len st <= g -> good (len st) (p_cases m pb k st l).
  Proof.
    induction k as [|k IH]; intros st l Hk Hg; [lia|].
    (* a block and the remaining cases, from a position behind the tag *)
    assert (Hrest : forall (mk : block -> cblocks -> cblocks) st' l', len st' <= len (adv st) -> S (len (adv st)) <= len st ->
              good (len st) (pbind (pb endwhen st' l') (fun b st2 l2 =>
                             pbind (p_cases m pb k st2 l2) (fun c st3 l3 => POk (mk b c) st3 l3)))).
    { intros mk st' l' H' Ha. apply (good_mono (len (adv st))); [lia|].
      apply good_pbind; [apply pb_good; lia|]. intros b st2 l2 H2.
      apply good_pbind; [eapply good_mono; [|apply IH]; lia|]. intros c st3 l3 H3. exact H3. }
    cbn [p_cases]. destruct (cur_is_tag Nendcase st) eqn:E1; [simpl; lia|].
    destruct (cur_is_tag Nelse st) eqn:E2.
    { destruct (cur_is_tag_cons _ _ E2) as (n' & r & Er). apply (Hrest CElse); [lia|exact (len_adv_cons _ _ _ Er)]. }
    destruct (cur_is_tag Nwhen st) eqn:E3; [|simpl; lia].
    destruct (cur_is_tag_cons _ _ E3) as (n' & r & Er). pose proof (len_adv_cons _ _ _ Er) as Ha.
    change (tl (toks st)) with (toks (adv st)).
    destruct (when_head (toks (adv st))) as [(r0 & r2 & E4)|E4]; rewrite E4.
    - pose proof (len_adv (adv st)). cbv zeta. apply good_handled; [lia|]. intros l'. apply (Hrest (CWhen r0)); lia.
    - apply (good_expr _ (len (adv st))); [apply inner_len|lia|]. intros c st' H'. apply (Hrest (CWhen c)); assumption.
  Qed.

  Lemma get_node_good n parse endt st l : good n (parse st l) -> good n (get_node m parse endt st l).
  Proof.
    unfold get_node. destruct (parse st l) as [a st' l'|e st' l'|]; simpl; auto. intros H.
    destruct (is_liquid e); [|exact H]. apply good_handled; auto. intros l2. simpl. destruct endt as [t'|]; auto.
    pose proof (len_eat_block [t'] st'). lia.
  Qed.

  (* the parse methods.  Each is entered on a token; behind it every position can be handed to pb *)
  Section Tag.
    Variables (st : stream) (l : log) (t : tok) (r : list tok).
    Hypothesis Er : toks st = t :: r.
    Hypothesis Hg : len st <= g.
    Let Ha : S (len (adv st)) <= len st := len_adv_cons _ _ _ Er.

    Lemma behind_tag {A} (x : pres A) : good (len (adv st)) x -> good (len st) x.
    Proof. apply good_mono. lia. Qed.

    (* the tag's expression, then k *)
    Lemma good_inner {B} eat (k : rexpr -> stream -> pres B) :
      (forall c st2, len st2 <= len (adv st) -> good (len (adv st)) (k c st2)) ->
      good (len st) (match inner m eat (adv st) with inl (c, st2) => k c st2 | inr (e, st2) => PErr e st2 l end).
    Proof. intros Hk. apply behind_tag, (good_expr _ (len (adv st))); [apply inner_len|lia|exact Hk]. Qed.

    (* behind the tag every position can be handed to pb *)
    Lemma pb_behind stops st2 l2 : len st2 <= len (adv st) -> good (len (adv st)) (pb stops st2 l2).
    Proof. intros H. apply pb_good; lia. Qed.

    (* an optional further block, announced by the tag t' *)
    Lemma opt_block_behind t' stops st2 l2 :
      len st2 <= len (adv st) -> good (len (adv st)) (if cur_is_tag t' st2 then pb stops (adv st2) l2 else POk BNil st2 l2).
    Proof.
      intros H. destruct (cur_is_tag t' st2) eqn:E; [|exact H].
      destruct (cur_is_tag_cons _ _ E) as (n' & r' & Er'). pose proof (len_adv_cons _ _ _ Er'). apply pb_behind. lia.
    Qed.

    Lemma illegal_good : good (len st) (p_illegal st l).
    Proof. unfold p_illegal. simpl. destruct (cur_is_expr (adv st)); lia. Qed.

    Lemma leaf_good n : good (len st) (p_leaf n st l).
    Proof. simpl. lia. Qed.

    Lemma inline_good mk : good (len st) (p_inline m mk st l).
    Proof. apply good_inner. intros c st2 H2. exact H2. Qed.

    Lemma echo_good : good (len st) (p_echo m st l).
    Proof. unfold p_echo. destruct (toks (adv st)) eqn:E; [simpl; lia|]. apply good_inner. intros c st2 H2. exact H2. Qed.

    Lemma hash_good : good (len st) (p_hash m st l).
    Proof. unfold p_hash. destruct (toks (adv st)) as [|[] r2]; try (simpl; lia). destruct (pexpr m q); simpl; lia. Qed.

    Lemma comment_good : good (len st) (p_comment st l).
    Proof. apply behind_tag, good_end_tag, len_eat_block. Qed.

    Lemma doc_good : good (len st) (p_doc st l).
    Proof.
      unfold p_doc. cbv zeta. destruct (cur_is_expr (adv st)); [simpl; lia|].
      pose proof (len_doc_scan (toks (adv st))) as Hd. fold (len (adv st)) in Hd.
      destruct (doc_scan (toks (adv st))) as [ok ts]. destruct ok; simpl; exact (Nat.le_trans _ _ _ Hd (len_adv st)).
    Qed.

    Lemma if_good neg : good (len st) (p_if m pb g neg st l).
    Proof.
      apply good_inner. intros c st2 H2.
      apply good_pbind; [apply pb_behind, H2|]. intros cns st3 l3 H3.
      apply good_pbind; [eapply good_mono; [|apply elsifs_good]; lia|]. intros [a|] st4 l4 H4; [|exact H4].
      apply good_pbind.
      - destruct (cur_is_tag Nelse st4) eqn:E; [|exact H4].
        destruct (cur_is_tag_cons _ _ E) as (n' & r' & Er'). pose proof (len_adv_cons _ _ _ Er').
        pose proof (len_adv (adv st4)). cbv zeta. destruct (cur_is_expr (adv st4)); apply pb_behind; lia.
      - intros d st5 l5 H5. cbv zeta. apply good_end_tag.
        pose proof (len_eat_block [if neg then Nendunless else Nendif] st5). lia.
    Qed.

    Lemma for_good : good (len st) (p_for m pb st l).
    Proof.
      apply good_inner. intros c st2 H2.
      apply good_pbind; [apply pb_behind, H2|]. intros body st3 l3 H3.
      apply good_pbind; [apply opt_block_behind, H3|]. intros d st4 l4 H4. apply good_end_tag, H4.
    Qed.

    Lemma case_good : good (len st) (p_case m pb g st l).
    Proof.
      apply good_inner. intros c st2 H2. cbv zeta.
      assert (Hj : len {| toks := skip_junk (toks st2); depth := depth st2 |} <= len st2) by apply len_skip_junk.
      apply good_pbind; [|intros bs st4 l4 H4; exact H4]. eapply good_mono; [|apply cases_good]; lia.
    Qed.

    Lemma block1_good mk endt : good (len st) (p_block1 m pb mk endt st l).
    Proof.
      apply good_inner. intros c st2 H2.
      apply good_pbind; [apply pb_behind, H2|]. intros body st3 l3 H3. apply good_end_tag, H3.
    Qed.

    Lemma blocktag_good : good (len st) (p_blocktag m pb st l).
    Proof.
      apply good_inner. intros c st2 H2.
      apply good_pbind; [apply pb_behind, H2|]. intros body st3 l3 H3.
      destruct (cur_is_tag Nendblock st3); [|exact H3]. destruct (cur_is_expr (adv st3)); [|exact H3].
      pose proof (len_adv st3). apply (good_expr _ (len (adv st3))); [apply inner_len|lia|]. intros c' st4 H4. simpl. lia.
    Qed.

    Lemma ifchanged_good : good (len st) (p_ifchanged pb st l).
    Proof.
      apply behind_tag. apply good_pbind; [apply pb_behind, le_n|]. intros body st3 l3 H3. apply good_end_tag, H3.
    Qed.

    Lemma translate_good : good (len st) (p_translate m pb st l).
    Proof.
      apply behind_tag. unfold p_translate. cbv zeta. apply (good_expr _ (len (adv st))); [|lia|].
      { destruct (cur_is_expr (adv st)); [apply inner_len|simpl; lia]. }
      intros c st2 H2. apply good_pbind; [apply pb_behind, H2|]. intros sing st3 l3 H3. destruct (valid_msg sing); [|exact H3].
      apply good_pbind; [apply opt_block_behind, H3|]. intros plur st4 l4 H4. destruct (valid_msg plur); [|exact H4].
      apply good_end_tag, H4.
    Qed.

    (* the inner stream of a liquid tag is parsed on its own; it counts as part of the token that carries it *)
    Lemma liquid_good : good (len st) (p_liquid pb st l).
    Proof.
      unfold p_liquid. destruct (toks (adv st)) as [|[| | | | | |[il|]] r2] eqn:E2; try (simpl; lia).
      assert (Hin : S (tsize il) <= len (adv st)) by (unfold len; rewrite E2; cbn [tsize]; rewrite tsize_liquid; lia).
      pose proof (Hpb [] {| toks := il; depth := depth st |} l ltac:(unfold len; simpl; lia)) as Hb.
      destruct (pb [] {| toks := il; depth := depth st |} l); simpl in Hb |- *; lia || contradiction.
    Qed.

    (* every parse method leaves at most the tokens it was given *)
    Lemma parse_of_good n : good (len st) (parse_of m pb g n st l).
    Proof.
      destruct n; cbn [parse_of];
        auto using illegal_good, leaf_good, inline_good, echo_good, hash_good, comment_good, doc_good, if_good, for_good,
          case_good, block1_good, blocktag_good, ifchanged_good, translate_good, liquid_good.
    Qed.
  End Tag.

  Lemma pnode_good st l t r : toks st = t :: r -> len st <= g -> good (len st) (pnode m pb g st l).
  Proof.
    intros Er Hg. unfold pnode. rewrite Er.
    assert (Hc : good (len st) (get_node m p_content None st l)).
    { apply get_node_good. unfold p_content. rewrite Er. pose proof (len_adv st). destruct t; simpl; lia. }
    destruct t; try exact Hc; apply get_node_good.
    - exact (inline_good st l _ _ Er Hg NOutput).
    - exact (parse_of_good st l _ _ Er Hg n).
    - simpl. lia.
  Qed.
End Progress.

Lemma pblock_of_good lim loop stops st l :
  good (len st) (loop stops {| toks := toks st; depth := S (depth st) |} l) -> good (len st) (pblock_of lim loop stops st l).
Proof.
  intros H. unfold pblock_of. destruct (Nat.ltb lim (depth {| toks := toks st; depth := S (depth st) |})); [simpl; unfold len; simpl; lia|].
  apply good_pbind; auto.
Qed.

(* the loop of _parse / parse_block never runs out of fuel when given one unit more than there are tokens,
   and never returns with more tokens than it was given *)
Lemma ploop_good m lim : forall f stops st l, S (len st) <= f -> good (len st) (ploop m lim f stops st l).
Proof.
  induction f as [|f IH]; intros stops st l Hf; [lia|].
  cbn [ploop]. destruct (toks st) as [|t r] eqn:Er; [simpl; lia|].
  destruct (is_stop stops t); [simpl; lia|].
  assert (Hlen : 1 <= len st) by (unfold len; rewrite Er; cbn [tsize]; pose proof (tok_size_pos t); lia).
  assert (Hpb : forall stops' st' l', S (len st') <= f -> good (len st') (pblock_of lim (ploop m lim f) stops' st' l')).
  { intros. apply pblock_of_good. apply (IH stops' {| toks := toks st'; depth := S (depth st') |} l'). exact H. }
  pose proof (pnode_good m _ f Hpb st l t r Er ltac:(lia)) as Hn.
  assert (Hadv : forall st', len st' <= len st -> S (len (adv st')) <= f /\ len (adv st') <= len st).
  { intros st' H'. pose proof (len_adv st'). destruct (toks st') as [|t' r'] eqn:E'.
    - unfold len, adv in *. rewrite E' in *. simpl in *. lia.
    - pose proof (len_adv_cons _ _ _ E'). lia. }
  destruct (pnode m (pblock_of lim (ploop m lim f)) f st l) as [n st' l'|e st' l'|]; simpl in Hn; [| |contradiction].
  - destruct (Hadv st' Hn). apply good_pbind.
    + eapply good_mono; [|apply IH]; lia.
    + intros; simpl; lia.
  - destruct (Hadv st' Hn). destruct (is_liquid e); [|simpl; lia].
    apply good_handled; [lia|]. intros l2. eapply good_mono; [|apply IH]; lia.
Qed.

Theorem parse_progress m lim f ts : S (tsize ts) <= f -> parse_fuel m lim f ts <> OutOfFuel.
Proof.
  intros Hf. unfold parse_fuel.
  pose proof (ploop_good m lim f [] {| toks := ts; depth := 0 |} log0 Hf) as H.
  destruct (ploop m lim f [] {| toks := ts; depth := 0 |} log0); simpl in H; try discriminate. contradiction.
Qed.

(* ------------------------------------------------------------------------------------------------ lax and warn never raise *)
Lemma get_node_noerr m parse endt st l : m <> Strict ->
  forall e st' l', get_node m parse endt st l = PErr e st' l' -> is_liquid e = false.
Proof.
  intros Hm e st' l'. unfold get_node. destruct (parse st l) as [a s1 l1|e1 s1 l1|]; try discriminate.
  destruct (is_liquid e1) eqn:El; [|intros H; inversion H; subst; exact El].
  unfold handled, handle. destruct m; try contradiction; discriminate.
Qed.

Lemma pnode_noerr m pb g st l : m <> Strict -> forall e st' l', pnode m pb g st l = PErr e st' l' -> is_liquid e = false.
Proof. intros Hm. unfold pnode. destruct (toks st) as [|[]]; apply get_node_noerr; auto. Qed.

(* in warn and lax mode the only exceptions that leave the parser are non-Liquid ones raised by an expression parser *)
Lemma ploop_noerr m lim : m <> Strict ->
  forall f stops st l e st' l', ploop m lim f stops st l = PErr e st' l' -> is_liquid e = false.
Proof.
  intros Hm. induction f as [|f IH]; intros stops st l e st' l'; [discriminate|].
  cbn [ploop]. destruct (toks st) as [|t r]; [discriminate|]. destruct (is_stop stops t); [discriminate|].
  pose proof (pnode_noerr m (pblock_of lim (ploop m lim f)) f st l Hm) as Hn.
  destruct (pnode m (pblock_of lim (ploop m lim f)) f st l) as [n s1 l1|e1 s1 l1|]; [| |discriminate].
  - simpl. pose proof (IH stops (adv s1) l1) as H. destruct (ploop m lim f stops (adv s1) l1); simpl; try discriminate.
    intros E; inversion E; subst. eapply H. reflexivity.
  - rewrite (Hn _ _ _ eq_refl). intros E; inversion E; subst. eapply Hn. reflexivity.
Qed.

(* ------------------------------------------------------------------------------------------------ one simulation, two uses *)
(* Two runs of the parser on the same tokens, under modes m1 and m2, with logs related by lr.  flag = true is the use
   "m1 is strict mode and only its successful runs matter"; flag = false is the use "the two runs agree step by step". *)
Section Sim.
  Variables (m1 m2 : mode) (flag : bool) (lr : log -> log -> Prop).

  Definition G {A} (x y : pres A) : Prop :=
    match x with
    | POk a st l => exists l', y = POk a st l' /\ lr l l'
    | PErr e st l => if flag then True else exists l', y = PErr e st l' /\ lr l l'
    | PFuel => if flag then True else y = PFuel
    end.

  Lemma G_ok {A} (a : A) st l l' : lr l l' -> G (POk a st l) (POk a st l').
  Proof. simpl; eauto. Qed.

  Lemma G_err {A} e st l l' (y : pres A) : lr l l' -> (flag = false -> y = PErr e st l') -> G (PErr e st l) y.
  Proof. intros H Hy. unfold G. destruct flag; auto. exists l'; auto. Qed.

  Lemma G_pbind {A B} (x y : pres A) (k k' : A -> stream -> log -> pres B) :
    G x y -> (forall a st l l', lr l l' -> G (k a st l) (k' a st l')) -> G (pbind x k) (pbind y k').
  Proof.
    intros H Hk. destruct x as [a st l|e st l|]; simpl in H.
    - destruct H as (l' & -> & Hl). simpl. auto.
    - simpl. destruct flag eqn:F; [exact I|]. destruct H as (l' & -> & Hl). simpl. eauto.
    - simpl. destruct flag eqn:F; [exact I|]. subst y. reflexivity.
  Qed.

  (* the second run simulates the first: started on the same stream with related logs, the results are related *)
  Definition sim {A} (p q : stream -> log -> pres A) : Prop := forall st l l', lr l l' -> G (p st l) (q st l').

  Lemma G_perr {A} e st l l' : lr l l' -> G (PErr e st l : pres A) (PErr e st l').
  Proof. intros H. apply G_err with (l' := l'); auto. Qed.

  Lemma G_err_strict {A} e st l (y : pres A) : flag = true -> G (PErr e st l) y.
  Proof. intros F. unfold G. rewrite F. exact I. Qed.

  (* the end tag must be here *)
  Lemma G_end_tag {A} t (a : A) st l l' : lr l l' ->
    G (if cur_is_tag t st then POk a st l else PErr ESyntax st l) (if cur_is_tag t st then POk a st l' else PErr ESyntax st l').
  Proof. intros H. destruct (cur_is_tag t st); [apply G_ok|apply G_perr]; exact H. Qed.

  (* a tag's expression, then k; x and y are [inner] under the two modes or stand for it *)
  Lemma G_expr {B} (x y : rexpr * stream + exn * stream) l l' (k k' : rexpr -> stream -> pres B) :
    match x with inl a => y = inl a | inr s => flag = false -> y = inr s end -> lr l l' ->
    (forall c st2, G (k c st2) (k' c st2)) ->
    G (match x with inl (c, st2) => k c st2 | inr (e, st2) => PErr e st2 l end)
      (match y with inl (c, st2) => k' c st2 | inr (e, st2) => PErr e st2 l' end).
  Proof.
    intros Hx Hl Hk. destruct x as [[c st2]|[e st2]]; [rewrite Hx; apply Hk|].
    apply G_err with (l' := l'); [exact Hl|]. intros F. rewrite (Hx F). reflexivity.
  Qed.

  Hypothesis H_flag : flag = true -> m1 = Strict.
  Hypothesis H_inner : forall eat st,
    match inner m1 eat st with inl x => inner m2 eat st = inl x | inr s => flag = false -> inner m2 eat st = inr s end.
  Hypothesis H_handled : forall B e st l l' (k k' : log -> pres B),
    lr l l' -> (forall l2 l2', lr l2 l2' -> G (k l2) (k' l2')) -> G (handled m1 e st l k) (handled m2 e st l' k').

  Lemma G_strict_handled {B} e st l (k : log -> pres B) (z : pres B) : flag = true -> G (handled m1 e st l k) z.
  Proof. intros F. rewrite (H_flag F). apply G_err_strict, F. Qed.

  (* the handler around one node, in Tag.get_node and in the loop of Parser.parse_block: a Liquid error goes to
     Environment.error and parsing resumes with k *)
  Lemma G_catch {A B} (x y : pres A) (ok ok' : A -> stream -> log -> pres B) (k k' : stream -> log -> pres B) :
    G x y -> (forall a st l l', lr l l' -> G (ok a st l) (ok' a st l')) -> (forall st l l', lr l l' -> G (k st l) (k' st l')) ->
    G (match x with
       | POk a st l => ok a st l
       | PErr e st l => if is_liquid e then handled m1 e st l (k st) else PErr e st l
       | PFuel => PFuel
       end)
      (match y with
       | POk a st l => ok' a st l
       | PErr e st l => if is_liquid e then handled m2 e st l (k' st) else PErr e st l
       | PFuel => PFuel
       end).
  Proof.
    intros H Hok Hk. destruct x as [a st l|e st l|]; simpl in H.
    - destruct H as (l' & -> & Hl). apply Hok, Hl.
    - case_eq flag; intros F.
      + destruct (is_liquid e); [apply G_strict_handled|apply G_err_strict]; exact F.
      + rewrite F in H. destruct H as (l' & -> & Hl). destruct (is_liquid e); [|apply G_perr, Hl].
        apply H_handled; [exact Hl|]. intros l2 l2' H2. apply Hk, H2.
    - case_eq flag; intros F; rewrite F in H; [simpl; rewrite F; exact I|]. rewrite H. simpl. rewrite F. reflexivity.
  Qed.

  Lemma G_inner {B} eat st l l' (k k' : rexpr -> stream -> pres B) :
    lr l l' -> (forall c st2, G (k c st2) (k' c st2)) ->
    G (match inner m1 eat st with inl (c, st2) => k c st2 | inr (e, st2) => PErr e st2 l end)
      (match inner m2 eat st with inl (c, st2) => k' c st2 | inr (e, st2) => PErr e st2 l' end).
  Proof. intros Hl Hk. apply G_expr; [apply H_inner|exact Hl|exact Hk]. Qed.

  Variables pb1 pb2 : list tname -> stream -> log -> pres block.
  Hypothesis Hpb : forall stops, sim (pb1 stops) (pb2 stops).

  (* an optional further block, announced by the tag t *)
  Lemma G_opt_block t stops st l l' : lr l l' ->
    G (if cur_is_tag t st then pb1 stops (adv st) l else POk BNil st l) (if cur_is_tag t st then pb2 stops (adv st) l' else POk BNil st l').
  Proof. intros H. destruct (cur_is_tag t st); [apply Hpb|apply G_ok]; exact H. Qed.

  Lemma sim_elsifs : forall g endt, sim (p_elsifs m1 pb1 g endt) (p_elsifs m2 pb2 g endt).
  Proof.
    induction g as [|g IH]; intros endt st l l' Hl; cbn [p_elsifs].
    { simpl. destruct flag; auto. }
    destruct (cur_is_tag Nelsif st); [|apply G_ok; auto].
    pose proof (H_inner true (adv st)) as Hi. destruct (inner m1 true (adv st)) as [[c st2]|[e0 st2]].
    - rewrite Hi. apply G_pbind; [apply Hpb; auto|]. intros b s2 l2 l2' H2.
      apply G_pbind; [apply IH; auto|]. intros oa s3 l3 l3' H3. apply G_ok; auto.
    - case_eq flag; intros F.
      + destruct (exn_eqb e0 ESyntax); [apply G_strict_handled|apply G_err_strict]; exact F.
      + rewrite (Hi F). destruct (exn_eqb e0 ESyntax); [|apply G_perr; auto]. apply H_handled; auto. intros. apply G_ok; auto.
  Qed.

  Lemma sim_cases : forall g, sim (p_cases m1 pb1 g) (p_cases m2 pb2 g).
  Proof.
    induction g as [|g IH]; intros st l l' Hl; cbn [p_cases].
    { simpl. destruct flag; auto. }
    (* a block and the remaining cases *)
    assert (Hrest : forall (mk : block -> cblocks -> cblocks) st' l0 l0', lr l0 l0' ->
              G (pbind (pb1 endwhen st' l0) (fun b st2 l2 => pbind (p_cases m1 pb1 g st2 l2) (fun c st3 l3 => POk (mk b c) st3 l3)))
                (pbind (pb2 endwhen st' l0') (fun b st2 l2 => pbind (p_cases m2 pb2 g st2 l2) (fun c st3 l3 => POk (mk b c) st3 l3)))).
    { intros mk st' l0 l0' H0. apply G_pbind; [apply Hpb; auto|]. intros b s2 l2 l2' H2.
      apply G_pbind; [apply IH; auto|]. intros c s3 l3 l3' H3. apply G_ok; auto. }
    destruct (cur_is_tag Nendcase st); [apply G_ok; auto|].
    destruct (cur_is_tag Nelse st); [apply (Hrest CElse); auto|].
    destruct (cur_is_tag Nwhen st); [|apply G_perr; auto].
    change (tl (toks st)) with (toks (adv st)).
    destruct (when_head (toks (adv st))) as [(r0 & r2 & E4)|E4]; rewrite !E4.
    - cbv zeta. apply H_handled; [exact Hl|]. intros l2 l2' H2. apply (Hrest (CWhen r0)); exact H2.
    - apply G_inner; [exact Hl|]. intros c st'. apply (Hrest (CWhen c)); exact Hl.
  Qed.

  Lemma sim_if g neg : sim (p_if m1 pb1 g neg) (p_if m2 pb2 g neg).
  Proof.
    intros st l l' Hl. apply G_inner; [exact Hl|]. intros c st2.
    apply G_pbind; [apply Hpb; auto|]. intros cns s3 l3 l3' H3.
    apply G_pbind; [apply sim_elsifs; auto|]. intros [a|] s4 l4 l4' H4; [|apply G_ok; auto].
    apply G_pbind.
    - destruct (cur_is_tag Nelse s4); [apply Hpb; auto|apply G_ok; auto].
    - intros d s5 l5 l5' H5. cbv zeta. apply G_end_tag; auto.
  Qed.

  Lemma sim_for : sim (p_for m1 pb1) (p_for m2 pb2).
  Proof.
    intros st l l' Hl. apply G_inner; [exact Hl|]. intros c st2.
    apply G_pbind; [apply Hpb; auto|]. intros body s3 l3 l3' H3.
    apply G_pbind; [apply G_opt_block; auto|]. intros d s4 l4 l4' H4. apply G_end_tag; auto.
  Qed.

  Lemma sim_inline mk : sim (p_inline m1 mk) (p_inline m2 mk).
  Proof. intros st l l' Hl. apply G_inner; [exact Hl|]. intros c st2. apply G_ok; auto. Qed.

  Lemma sim_echo : sim (p_echo m1) (p_echo m2).
  Proof.
    intros st l l' Hl. unfold p_echo. destruct (toks (adv st)); [apply G_ok; auto|].
    apply G_inner; [exact Hl|]. intros c st2. apply G_ok; auto.
  Qed.

  Lemma sim_block1 mk endt : sim (p_block1 m1 pb1 mk endt) (p_block1 m2 pb2 mk endt).
  Proof.
    intros st l l' Hl. apply G_inner; [exact Hl|]. intros c st2.
    apply G_pbind; [apply Hpb; auto|]. intros body s3 l3 l3' H3. apply G_end_tag; auto.
  Qed.

  Lemma sim_blocktag : sim (p_blocktag m1 pb1) (p_blocktag m2 pb2).
  Proof.
    intros st l l' Hl. apply G_inner; [exact Hl|]. intros c st2.
    apply G_pbind; [apply Hpb; auto|]. intros body s3 l3 l3' H3.
    destruct (cur_is_tag Nendblock s3); [|apply G_perr; auto]. destruct (cur_is_expr (adv s3)); [|apply G_ok; auto].
    apply G_inner; [exact H3|]. intros c' st4. apply G_ok; auto.
  Qed.

  Lemma sim_ifchanged : sim (p_ifchanged pb1) (p_ifchanged pb2).
  Proof.
    intros st l l' Hl. apply G_pbind; [apply Hpb; auto|]. intros body s3 l3 l3' H3. apply G_end_tag; auto.
  Qed.

  Lemma sim_translate : sim (p_translate m1 pb1) (p_translate m2 pb2).
  Proof.
    intros st l l' Hl. unfold p_translate. cbv zeta. apply G_expr; [|exact Hl|].
    { destruct (cur_is_expr (adv st)); [apply H_inner|reflexivity]. }
    intros c st2. apply G_pbind; [apply Hpb; auto|]. intros sing s3 l3 l3' H3. destruct (valid_msg sing); [|apply G_perr; auto].
    apply G_pbind; [apply G_opt_block; auto|]. intros plur s4 l4 l4' H4. destruct (valid_msg plur); [|apply G_perr; auto].
    apply G_end_tag; auto.
  Qed.

  Lemma sim_liquid : sim (p_liquid pb1) (p_liquid pb2).
  Proof.
    intros st l l' Hl. unfold p_liquid.
    destruct (toks (adv st)) as [|[| | | | | |[il|]] r2]; try (apply G_ok; exact Hl); try (apply G_perr; exact Hl).
    pose proof (Hpb [] {| toks := il; depth := depth st |} l l' Hl) as H.
    destruct (pb1 [] {| toks := il; depth := depth st |} l) as [b s1 l1|e s1 l1|]; simpl in H.
    - destruct H as (l1' & -> & H1). apply G_ok; auto.
    - case_eq flag; intros F; rewrite F in H; [apply G_err_strict, F|].
      destruct H as (l1' & -> & H1). apply G_perr; auto.
    - case_eq flag; intros F; rewrite F in H; unfold G; rewrite F; auto. rewrite H. reflexivity.
  Qed.

  (* the expression parser alone, read off H_inner on a one-token stream *)
  Lemma pexpr_sim q : match pexpr m1 q with inr r => pexpr m2 q = inr r | inl e => flag = false -> pexpr m2 q = inl e end.
  Proof.
    pose proof (H_inner false {| toks := [TExpr q]; depth := 0 |}) as H. unfold inner in H. simpl in H.
    destruct (pexpr m1 q) as [e|r]; destruct (pexpr m2 q) as [e'|r']; try congruence.
    - intros F. specialize (H F). congruence.
    - intros F. specialize (H F). congruence.
  Qed.

  Lemma sim_hash : sim (p_hash m1) (p_hash m2).
  Proof.
    intros st l l' Hl. unfold p_hash. destruct (toks (adv st)) as [|[] r2]; try (apply G_ok; exact Hl).
    pose proof (pexpr_sim q) as Hq. destruct (pexpr m1 q) as [e|r]; [|rewrite Hq; apply G_ok; auto].
    apply G_err with (l' := l'); [exact Hl|]. intros F. rewrite (Hq F). reflexivity.
  Qed.

  Lemma sim_case g : sim (p_case m1 pb1 g) (p_case m2 pb2 g).
  Proof.
    intros st l l' Hl. apply G_inner; [exact Hl|]. intros c st2.
    apply G_pbind; [apply sim_cases; auto|]. intros bs s4 l4 l4' H4. apply G_ok; auto.
  Qed.

  Lemma sim_comment : sim p_comment p_comment.
  Proof. intros st l l' Hl. apply G_end_tag, Hl. Qed.

  Lemma sim_doc : sim p_doc p_doc.
  Proof.
    intros st l l' Hl. unfold p_doc. cbv zeta. destruct (cur_is_expr (adv st)); [apply G_perr; auto|].
    destruct (doc_scan (toks (adv st))) as [[|] ts]; [apply G_ok|apply G_perr]; exact Hl.
  Qed.

  Lemma sim_illegal : sim p_illegal p_illegal.
  Proof. intros st l l' Hl. apply G_perr, Hl. Qed.

  Lemma sim_leaf n : sim (p_leaf n) (p_leaf n).
  Proof. intros st l l' Hl. apply G_ok, Hl. Qed.

  Lemma sim_parse_of g n : sim (parse_of m1 pb1 g n) (parse_of m2 pb2 g n).
  Proof.
    destruct n; cbn [parse_of];
      auto using sim_illegal, sim_leaf, sim_if, sim_for, sim_case, sim_block1, sim_blocktag, sim_ifchanged, sim_translate,
        sim_inline, sim_echo, sim_hash, sim_comment, sim_doc, sim_liquid.
  Qed.

  Lemma sim_get_node parse1 parse2 endt : sim parse1 parse2 -> sim (get_node m1 parse1 endt) (get_node m2 parse2 endt).
  Proof.
    intros H st l l' Hl. unfold get_node.
    apply G_catch; [apply H, Hl| |]; intros; apply G_ok; assumption.
  Qed.

  Lemma sim_content : sim p_content p_content.
  Proof. intros st l l' Hl. unfold p_content. destruct (toks st) as [|[]]; try (apply G_perr, Hl). apply G_ok, Hl. Qed.

  Lemma sim_output : sim (p_output m1) (p_output m2).
  Proof. exact (sim_inline NOutput). Qed.

  Lemma sim_pnode g : sim (pnode m1 pb1 g) (pnode m2 pb2 g).
  Proof.
    intros st l l' Hl. unfold pnode.
    destruct (toks st) as [|[]]; apply sim_get_node;
      auto using sim_content, sim_output, sim_parse_of, sim_leaf.
  Qed.
End Sim.

(* the induction on the fuel instantiates pb1, pb2 of Section Sim with the loop itself: hence its hypotheses once more *)
Section SimLoop.
  Variables (m1 m2 : mode) (flag : bool) (lr : log -> log -> Prop) (lim : nat).
  Hypothesis H_flag : flag = true -> m1 = Strict.
  Hypothesis H_inner : forall eat st,
    match inner m1 eat st with inl x => inner m2 eat st = inl x | inr s => flag = false -> inner m2 eat st = inr s end.
  Hypothesis H_handled : forall B e st l l' (k k' : log -> pres B),
    lr l l' -> (forall l2 l2', lr l2 l2' -> G flag lr (k l2) (k' l2')) -> G flag lr (handled m1 e st l k) (handled m2 e st l' k').

  Lemma sim_pblock_of loop1 loop2 :
    (forall stops, sim flag lr (loop1 stops) (loop2 stops)) ->
    forall stops, sim flag lr (pblock_of lim loop1 stops) (pblock_of lim loop2 stops).
  Proof.
    intros H stops st l l' Hl. unfold pblock_of. destruct (Nat.ltb lim _).
    - apply G_perr, Hl.
    - apply G_pbind; [apply H, Hl|]. intros. apply G_ok; auto.
  Qed.

  Lemma sim_ploop : forall f stops, sim flag lr (ploop m1 lim f stops) (ploop m2 lim f stops).
  Proof.
    induction f as [|f IH]; intros stops st l l' Hl; cbn [ploop].
    { simpl. destruct flag; auto. }
    destruct (toks st) as [|t r]; [apply G_ok; auto|].
    destruct (is_stop stops t); [apply G_ok; auto|].
    pose proof (sim_pnode m1 m2 flag lr H_flag H_inner H_handled _ _ (sim_pblock_of _ _ IH) f st l l' Hl) as Hn.
    apply (G_catch m1 m2 flag lr H_flag H_handled); [exact Hn| |].
    - intros n s1 l1 l1' H1. apply G_pbind; [apply IH; exact H1|]. intros. apply G_ok; assumption.
    - intros s1 l1 l1' H1. apply IH, H1.
  Qed.
End SimLoop.

(* ---- use 1: warn mode against lax mode ---- *)
(* the warn log against the lax log: the same errors suppressed; warn has emitted each of them, lax none *)
Definition lrel (lw ll : log) : Prop := suppressed lw = suppressed ll /\ emitted lw = suppressed lw /\ emitted ll = [].

Lemma inner_warn_lax eat st : inner Warn eat st = inner Lax eat st.
Proof. unfold inner. destruct (toks st) as [|[| |[]| | | |]]; reflexivity. Qed.

Lemma lrel0 : lrel log0 log0.
Proof. unfold lrel, log0; simpl; auto. Qed.

Lemma lrel_warn lw ll : lrel lw ll -> lw = {| emitted := suppressed ll; suppressed := suppressed ll |}.
Proof. destruct lw as [e s]. unfold lrel; simpl. intros (-> & -> & _). reflexivity. Qed.

(* what Environment.error does to the two logs *)
Lemma lrel_step e lw ll : lrel lw ll ->
  lrel {| emitted := emitted lw ++ [e]; suppressed := suppressed lw ++ [e] |} {| emitted := emitted ll; suppressed := suppressed ll ++ [e] |}.
Proof. intros (H1 & H2 & H3). unfold lrel; simpl. rewrite H1, H2, H3, H1. auto. Qed.

Lemma handled_warn_lax B e st l l' (k k' : log -> pres B) :
  lrel l l' -> (forall l2 l2', lrel l2 l2' -> G false lrel (k l2) (k' l2')) -> G false lrel (handled Warn e st l k) (handled Lax e st l' k').
Proof. intros Hl Hk. apply Hk, lrel_step, Hl. Qed.

Lemma ploop_warn_lax lim f stops st l l' :
  lrel l l' -> G false lrel (ploop Warn lim f stops st l) (ploop Lax lim f stops st l').
Proof.
  apply sim_ploop.
  - discriminate.
  - intros eat s. rewrite inner_warn_lax. destruct (inner Lax eat s) as [x|s']; auto.
  - apply handled_warn_lax.
Qed.

(* ---- use 2: a successful strict run against any mode ---- *)
(* a strict run that succeeds never reaches Environment.error: both logs stay what they were at the start *)
Definition lfix (l0 l0' l l' : log) : Prop := l = l0 /\ l' = l0'.

Lemma inner_strict m eat st x : inner Strict eat st = inl x -> inner m eat st = inl x.
Proof.
  unfold inner. destruct (toks st) as [|[| |q| | | |]]; try discriminate.
  destruct q; simpl; try discriminate; destruct m; auto.
Qed.

Lemma ploop_strict m lim l0 l0' f stops st :
  G true (lfix l0 l0') (ploop Strict lim f stops st l0) (ploop m lim f stops st l0').
Proof.
  apply sim_ploop.
  - reflexivity.
  - intros eat s. destruct (inner Strict eat s) as [x|s'] eqn:E; [apply inner_strict; auto|discriminate].
  - intros. unfold handled, handle. simpl. exact I.
  - split; reflexivity.
Qed.

(* ------------------------------------------------------------------------------------------------ parsing: warn mode against lax mode *)
(* warn mode against lax mode: the same tree and one warning per suppressed error -- or the same non-Liquid exception, raised by
   an expression parser, leaves both (those are outside this property, see C02) *)
Theorem warn_parse_is_lax_parse lim ts :
  (exists b l, parse Lax lim ts = Ok (b, l) /\ emitted l = [] /\
               parse Warn lim ts = Ok (b, {| emitted := suppressed l; suppressed := suppressed l |})) \/
  (exists e, parse Lax lim ts = Err e /\ parse Warn lim ts = Err e /\ is_liquid e = false).
Proof.
  unfold parse, parse_fuel. set (st0 := {| toks := ts; depth := 0 |}).
  pose proof (ploop_warn_lax lim (S (tsize ts)) [] st0 log0 log0 lrel0) as H.
  pose proof (ploop_good Warn lim (S (tsize ts)) [] st0 log0 (le_n _)) as Hg.
  pose proof (ploop_noerr Warn lim ltac:(discriminate) (S (tsize ts)) [] st0 log0) as He.
  destruct (ploop Warn lim (S (tsize ts)) [] st0 log0) as [b st lw|e st lw|]; unfold G in H; unfold good in Hg; [| |contradiction];
    destruct H as (ll & -> & Hr).
  - left. exists b, ll. split; [reflexivity|]. split; [apply Hr|]. rewrite (lrel_warn _ _ Hr). reflexivity.
  - right. exists e. rewrite (He _ _ _ eq_refl). auto.
Qed.

(* ------------------------------------------------------------------------------------------------ rendering *)
Local Opaque call_at.

Lemma render_top_warn_lax ib : forall b s out lw ll, lrel lw ll ->
  match render_top ib Warn b s out lw, render_top ib Lax b s out ll with
  | Ok (t, l1), Ok (t', l2) => t = t' /\ lrel l1 l2
  | Err e, Err e' => e = e' /\ is_liquid e = false
  | _, _ => False
  end.
Proof.
  induction b as [|n b IH]; intros s out lw ll Hl; cbn [render_top]; [auto|].
  destruct (rnode (call_at ib call_depth) ib false n s) as [[t c] o].
  destruct o as [|e|i|]; simpl.
  - apply IH, Hl.
  - destruct (is_liquid e) eqn:El; simpl; [apply IH, lrel_step, Hl|auto].
  - apply IH, lrel_step, Hl.
  - auto.
Qed.

Lemma render_top_strict ib : forall b s out l0 t l,
  render_top ib Strict b s out l0 = Ok (t, l) -> l = l0 /\ forall m l0', render_top ib m b s out l0' = Ok (t, l0').
Proof.
  induction b as [|n b IH]; intros s out l0 t l; cbn [render_top].
  - intros H; inversion H; subst. split; auto.
  - destruct (rnode (call_at ib call_depth) ib false n s) as [[t1 c] o]. destruct o as [|e|i|]; simpl.
    + intros H. destruct (IH _ _ _ _ _ H) as (-> & Hm). split; auto.
    + destruct (is_liquid e); discriminate.
    + discriminate.
    + intros H; inversion H; subst. split; auto.
Qed.

Theorem warn_render_is_lax_render b :
  (exists t l, render Lax b = Ok (t, l) /\ emitted l = [] /\
               render Warn b = Ok (t, {| emitted := suppressed l; suppressed := suppressed l |})) \/
  (exists e, render Lax b = Err e /\ render Warn b = Err e /\ is_liquid e = false).
Proof.
  unfold render. pose proof (render_top_warn_lax (inheritance_bad b) b rst0 [] log0 log0 lrel0) as H.
  destruct (render_top (inheritance_bad b) Warn b rst0 [] log0) as [[t l1]|e|]; destruct (render_top (inheritance_bad b) Lax b rst0 [] log0) as [[t' l2]|e'|]; try contradiction.
  - left. destruct H as (-> & Hr). exists t', l2. split; [reflexivity|]. split; [apply Hr|]. rewrite (lrel_warn _ _ Hr). reflexivity.
  - right. destruct H as (-> & Hl). eauto.
Qed.

(* what the check runs: a mode, a block nesting limit, a token stream *)
Definition mk_case (m : mode) (lim : nat) (ts : list tok) : rcase := {| rc_mode := m; rc_limit := lim; rc_toks := ts |}.
