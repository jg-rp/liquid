(* Scope_Undef_Proofs.v — the strict undefined types only refine the default one (C16): an evaluator succeeds under the
   default type wherever it does under another (res_le), so a run that does not raise is a run under the default type
   (covers); StrictUndefined raises on each modelled use, the default type never; guarded: abstract filters that keep this. *)
From Coq Require Import String Ascii List.
From LiquidVerif Require Import Prelude PyPrims Scope Scope_Proofs.
Import ListNotations.

(* r2 succeeds wherever r1 does, with the same value.  Every evaluator is below itself run with the default type. *)
Definition res_le {A} (r1 r2 : res A) : Prop := forall a, r1 = Ok a -> r2 = Ok a.

Lemma res_le_refl {A} (r : res A) : res_le r r.
Proof. intros a H. exact H. Qed.

Lemma res_le_bind {A B} (r1 r2 : res A) (k1 k2 : A -> res B) :
  res_le r1 r2 -> (forall a, res_le (k1 a) (k2 a)) -> res_le (bind r1 k1) (bind r2 k2).
Proof. intros Hr Hk b. destruct r1 as [a| |]; try discriminate. rewrite (Hr a eq_refl). apply Hk. Qed.

(* a segment that does not raise under some type is the same segment under the default type *)
Lemma step_item_refines g uk obj kv :
  step_item g uk obj kv <> SRaise -> step_item g UDefault obj kv = step_item g uk obj kv.
Proof.
  unfold step_item. destruct (is_undef kv && probe_raises uk); [congruence|].
  simpl. rewrite andb_false_r. destruct obj; auto. destruct (strict_kind uk); congruence.
Qed.

Lemma walk_refines g uk ks : forall obj, res_le (walk g uk obj ks) (walk g UDefault obj ks).
Proof.
  induction ks as [|k ks IH]; intros obj v H; simpl in *; [exact H|].
  pose proof (step_item_refines g uk obj k) as E.
  destruct (step_item g uk obj k); [rewrite E by discriminate; apply IH, H|rewrite E by discriminate; exact H|discriminate].
Qed.

Lemma eval_simple_refines uk c r ks : res_le (eval_simple uk c r ks) (eval_simple UDefault c r ks).
Proof. unfold eval_simple. destruct (resolve c r); [apply walk_refines|apply res_le_refl]. Qed.

Lemma eval_segs_refines uk c ss : res_le (eval_segs uk c ss) (eval_segs UDefault c ss).
Proof.
  induction ss as [|s ss IH]; simpl; [apply res_le_refl|].
  apply res_le_bind; [destruct s; [apply res_le_refl|apply eval_simple_refines]|].
  intro v. apply res_le_bind; [exact IH|intro; apply res_le_refl].
Qed.

Lemma eval_path_refines uk c p : res_le (eval_path uk c p) (eval_path UDefault c p).
Proof.
  unfold eval_path. apply res_le_bind; [apply eval_segs_refines|]. intro ks.
  destruct (resolve c (p_root p)); [apply walk_refines|apply res_le_refl].
Qed.

Lemma eval_expr_refines uk c e : res_le (eval_expr uk c e) (eval_expr UDefault c e).
Proof. destruct e; [apply res_le_refl|apply eval_path_refines]. Qed.

(* the condition on an abstract filter table under which the refinement survives: whatever a filter returns under
   some undefined type it also returns under the default type *)
Definition filters_refine (ft : filter_table) : Prop :=
  forall id uk v args r, ft id uk v args = Ok r -> ft id UDefault v args = Ok r.

Lemma eval_args_refines uk c es : res_le (eval_args uk c es) (eval_args UDefault c es).
Proof.
  induction es as [|e es IH]; simpl; [apply res_le_refl|].
  apply res_le_bind; [apply eval_expr_refines|]. intro v. apply res_le_bind; [exact IH|intro; apply res_le_refl].
Qed.

(* the `has` filter with its is_undefined guard is such a filter: an undefined left value raises under every strict
   type and is empty otherwise; an undefined VALUE argument raises or counts as nil; nothing else looks at the type *)
Lemma has_filter_refines uk v attr w r : has_filter uk v attr w = Ok r -> has_filter UDefault v attr w = Ok r.
Proof.
  revert r. apply res_le_bind.
  - destruct v; try apply res_le_refl. simpl. destruct (strict_kind uk); [discriminate|apply res_le_refl].
  - intro items. destruct w; try apply res_le_refl. simpl. destruct (probe_raises uk); [discriminate|apply res_le_refl].
Qed.

Lemma apply_filter_refines ft uk c f v :
  filters_refine ft -> res_le (apply_filter ft uk c f v) (apply_filter ft UDefault c f v).
Proof.
  intro Hft. destruct f; simpl.
  - destruct v; try apply res_le_refl. destruct (strict_kind uk); [discriminate|apply res_le_refl].
  - destruct v; try apply res_le_refl. destruct (strict_kind uk); [discriminate|apply res_le_refl].
  - destruct v; try apply res_le_refl. destruct uk; try apply res_le_refl; discriminate.
  - apply res_le_bind; [destruct value; [apply eval_expr_refines|apply res_le_refl]|]. intros w r. apply has_filter_refines.
  - apply res_le_bind; [apply eval_args_refines|]. intros ws r. apply Hft.
Qed.

Lemma apply_filters_refines ft uk c fs : filters_refine ft ->
  forall v, res_le (apply_filters ft uk c fs v) (apply_filters ft UDefault c fs v).
Proof.
  intro Hft. induction fs as [|f fs IH]; intro v; simpl; [apply res_le_refl|].
  apply res_le_bind; [apply apply_filter_refines, Hft|exact IH].
Qed.

Lemma eval_fexpr_refines ft uk c e : filters_refine ft -> res_le (eval_fexpr ft uk c e) (eval_fexpr ft UDefault c e).
Proof.
  intro Hft. destruct e as [e0 fs]. simpl. apply res_le_bind; [apply eval_expr_refines|apply apply_filters_refines, Hft].
Qed.

Lemma to_output_refines uk v : res_le (to_output uk v) (to_output UDefault v).
Proof. destruct v; try apply res_le_refl. simpl. destruct (strict_kind uk); [discriminate|apply res_le_refl]. Qed.

Lemma truthy_refines uk v : res_le (truthy uk v) (truthy UDefault v).
Proof. destruct v; try apply res_le_refl. simpl. destruct (probe_raises uk); [discriminate|apply res_le_refl]. Qed.

Lemma eval_atom_refines uk c a : res_le (eval_atom uk c a) (eval_atom UDefault c a).
Proof.
  destruct a as [e|e l|e l|e n]; simpl; (apply res_le_bind; [apply eval_expr_refines|]); intro v.
  - apply truthy_refines.
  - simpl. rewrite andb_false_r. destruct (is_undef v && probe_raises uk); [discriminate|apply res_le_refl].
  - simpl. rewrite andb_false_r. destruct (is_undef v && probe_raises uk); [discriminate|apply res_le_refl].
  - destruct v; try apply res_le_refl. simpl. destruct (probe_raises uk); discriminate.
Qed.

Lemma eval_cond_refines uk c cd : res_le (eval_cond uk c cd) (eval_cond UDefault c cd).
Proof.
  induction cd as [a|a r IH|a r IH]; simpl; [apply eval_atom_refines| |];
    (apply res_le_bind; [apply eval_atom_refines|]); intros [|]; try apply res_le_refl; exact IH.
Qed.

Lemma eval_kwargs_refines uk c args : forall acc, res_le (eval_kwargs uk c args acc) (eval_kwargs UDefault c args acc).
Proof.
  induction args as [|[k e] args IH]; intro acc; simpl; [apply res_le_refl|].
  apply res_le_bind; [apply eval_expr_refines|]. intro v. apply IH.
Qed.

Lemma items_of_refines g uk v : res_le (items_of g uk v) (items_of g UDefault v).
Proof. destruct v; try apply res_le_refl. simpl. destruct (strict_kind uk); [discriminate|apply res_le_refl]. Qed.

Lemma eval_iter_refines uk c it : res_le (eval_iter uk c it) (eval_iter UDefault c it).
Proof.
  destruct it as [p|a b]; simpl; [|apply res_le_refl]. apply res_le_bind; [apply eval_path_refines|]. intro v. apply items_of_refines.
Qed.

Lemma arraylike_refines uk v : arraylike uk v <> ARaise -> arraylike UDefault v = arraylike uk v.
Proof. destruct v; simpl; auto. destruct (probe_raises uk); [intro H; exfalso; apply H; reflexivity|auto]. Qed.

Lemma bind_params_refines uk c ps kws : forall acc, res_le (bind_params uk c ps kws acc) (bind_params UDefault c ps kws acc).
Proof.
  induction ps as [|[p d] ps IH]; intro acc; simpl; [apply res_le_refl|].
  apply res_le_bind; [|intro v; apply IH].
  destruct (last_kw p kws); [apply eval_expr_refines|]. destruct d; [apply eval_expr_refines|apply res_le_refl].
Qed.

Lemma macro_namespace_refines uk c ps kws : res_le (macro_namespace uk c ps kws) (macro_namespace UDefault c ps kws).
Proof. unfold macro_namespace. apply res_le_bind; [apply eval_kwargs_refines|]. intro ex. apply bind_params_refines. Qed.

Definition no_raise (s : signal) : Prop := match s with Raise _ => False | _ => True end.

(* o2 is the run o1, unless o1 ended in an exception (or ran out of fuel).  One rule per combinator of exec_step. *)
Definition covers (o1 o2 : outcome) : Prop :=
  match o1 with Done _ _ s => no_raise s -> o2 = o1 | Fuel => True end.
Arguments covers : simpl never.

Lemma covers_done o1 o2 c out s : covers o1 o2 -> o1 = Done c out s -> no_raise s -> o2 = Done c out s.
Proof. intros H ->. exact H. Qed.

Lemma covers_refl o : covers o o.
Proof. destruct o; [intros _; reflexivity|exact I]. Qed.

Lemma covers_lift {A} (ra rb : res A) c k1 k2 :
  res_le ra rb -> (forall a, covers (k1 a) (k2 a)) -> covers (lift ra c k1) (lift rb c k2).
Proof. intros Hr Hk. destruct ra as [a|e|]; [rewrite (Hr a eq_refl); apply Hk|intros []|exact I]. Qed.

Lemma covers_after o1 o2 f : covers o1 o2 -> covers (after o1 f) (after o2 f).
Proof. destruct o1 as [c out s|]; [|trivial]. intros H Hs. rewrite (H Hs). reflexivity. Qed.

Lemma covers_back c o1 o2 :
  covers o1 o2 ->
  covers (match o1 with Fuel => Fuel | Done _ out s => Done c out s end)
         (match o2 with Fuel => Fuel | Done _ out s => Done c out s end).
Proof. destruct o1 as [c1 out s|]; [|trivial]. intros H Hs. rewrite (H Hs). reflexivity. Qed.

Section Covers.
  Variables r1 r2 : node -> ctx -> outcome.
  Hypothesis Hr : forall n c, covers (r1 n c) (r2 n c).

  Lemma covers_seq_nodes l : forall c, covers (seq_nodes r1 l c) (seq_nodes r2 l c).
  Proof.
    induction l as [|n l IH]; intro c; simpl; [apply covers_refl|].
    specialize (Hr n c). destruct (r1 n c) as [c1 o1 s1|]; [|exact I].
    destruct s1; [|rewrite (Hr I); apply covers_refl..|intros []].
    rewrite (Hr I). specialize (IH c1). destruct (seq_nodes r1 l c1); [|exact I].
    intro Hs. rewrite (IH Hs). reflexivity.
  Qed.

  (* in strict tolerance mode an exception inside a template is never swallowed *)
  Lemma covers_tmpl_nodes pr l : forall c, covers (tmpl_nodes MStrict pr r1 l c) (tmpl_nodes MStrict pr r2 l c).
  Proof.
    induction l as [|n l IH]; intro c; simpl; [apply covers_refl|].
    specialize (Hr n c). destruct (r1 n c) as [c1 o1 s1|]; [|exact I].
    destruct s1; [|rewrite (Hr I); destruct pr; [apply covers_refl|intros []]..|intros []].
    rewrite (Hr I). specialize (IH c1). destruct (tmpl_nodes MStrict pr r1 l c1); [|exact I].
    intro Hs. rewrite (IH Hs). reflexivity.
  Qed.

  Lemma covers_run_template p pr body c :
    covers (run_template MStrict p pr r1 body c) (run_template MStrict p pr r2 body c).
  Proof. apply covers_after, covers_tmpl_nodes. Qed.
End Covers.

Lemma covers_loop_items catch (f1 f2 : ctx -> val -> Z -> outcome) items :
  (forall c v i, covers (f1 c v i) (f2 c v i)) ->
  forall i c, covers (loop_items catch f1 items i c) (loop_items catch f2 items i c).
Proof.
  intro Hf. induction items as [|v items IH]; intros i c; simpl; [apply covers_refl|].
  specialize (Hf c v i). destruct (f1 c v i) as [c1 o1 s1|]; [|exact I].
  specialize (IH (i + 1)%Z c1).
  assert (Hcont : covers (match loop_items catch f1 items (i + 1)%Z c1 with Fuel => Fuel | Done c2 o2 s2 => Done c2 (o1 ++ o2) s2 end)
                         (match loop_items catch f2 items (i + 1)%Z c1 with Fuel => Fuel | Done c2 o2 s2 => Done c2 (o1 ++ o2) s2 end)).
  { destruct (loop_items catch f1 items (i + 1)%Z c1); [|exact I]. intro Hs. rewrite (IH Hs). reflexivity. }
  destruct s1; [rewrite (Hf I); exact Hcont|rewrite (Hf I); destruct catch; apply covers_refl
               |rewrite (Hf I); destruct catch; [exact Hcont|apply covers_refl]|intros []].
Qed.

(* one node: if the nested interpreter is covered, so is the node *)
Lemma exec_step_covers uk ld ft r1 r2 : filters_refine ft ->
  (forall n c, covers (r1 n c) (r2 n c)) ->
  forall n c, covers (exec_step (Env MStrict uk ld ft) r1 n c) (exec_step (Env MStrict UDefault ld ft) r2 n c).
Proof.
  intros Hft Hr n c.
  pose proof (covers_seq_nodes r1 r2 Hr) as Hseq. pose proof (covers_run_template r1 r2 Hr) as Htm.
  destruct n; cbn [exec_step e_uk e_mode e_loader e_filters]; try apply covers_refl.
  - (* output *)
    apply covers_lift; [apply eval_fexpr_refines, Hft|]. intro v.
    apply covers_lift; [apply to_output_refines|]. intro t. apply covers_refl.
  - (* assign *) apply covers_lift; [apply eval_fexpr_refines, Hft|]. intro v. apply covers_refl.
  - (* capture *)
    specialize (Hseq body c). destruct (seq_nodes r1 body c) as [c1 o1 s1|]; [|exact I].
    destruct s1; [rewrite (Hseq I); apply covers_refl..|intros []].
  - (* if *) apply covers_lift; [apply eval_cond_refines|]. intro b. apply Hseq.
  - (* for *)
    apply covers_lift; [apply eval_iter_refines|]. intros [|v0 items0]; [apply Hseq|].
    apply covers_after, covers_loop_items. intros ci v i. apply Hseq.
  - (* with *) apply covers_lift; [apply eval_kwargs_refines|]. intro nw. apply covers_after, Hseq.
  - (* include *)
    destruct (is_disabled TInclude c); [apply covers_refl|].
    destruct (alookup name ld) as [body|]; [|apply covers_refl].
    apply covers_lift; [apply eval_kwargs_refines|]. intro na. apply covers_after.
    destruct var as [[p alias]|]; [|apply Htm].
    apply covers_lift; [apply eval_path_refines|]. intro v.
    pose proof (arraylike_refines uk v) as Ea.
    destruct (arraylike uk v); [| |intros []]; rewrite Ea by discriminate; [|apply Htm].
    apply covers_loop_items. intros ci itm i. apply Htm.
  - (* render *)
    destruct (alookup name ld) as [body|]; [|apply covers_refl].
    apply covers_lift; [apply eval_kwargs_refines|]. intro na.
    destruct var as [[[p lp] alias]|]; [|apply covers_back, Htm].
    apply covers_lift; [apply eval_path_refines|]. intro v.
    assert (Ea : (if lp then arraylike uk v else ANot) <> ARaise ->
                 (if lp then arraylike UDefault v else ANot) = (if lp then arraylike uk v else ANot))
      by (destruct lp; [apply arraylike_refines|reflexivity]).
    destruct (if lp then arraylike uk v else ANot); [| |intros []]; rewrite Ea by discriminate; apply covers_back; [|apply Htm].
    apply covers_loop_items. intros ci itm i. apply Htm.
  - (* call *)
    destruct (alookup name (macros c)) as [[ps body]|].
    + apply covers_lift; [apply macro_namespace_refines|]. intro nm. apply covers_back, Hseq.
    + apply covers_lift; [apply to_output_refines|]. intro t. apply covers_refl.
  - (* block *)
    destruct (is_disabled TBlock c); [apply covers_refl|].
    destruct (overrides c) as [ovs|]; [apply covers_back, Hseq|apply covers_after, Hseq].
  - (* extends *)
    destruct (alookup base ld) as [body|]; [|apply covers_refl]. apply covers_after, Htm.
Qed.

Theorem exec_covers fuel uk ld ft : filters_refine ft ->
  forall n c, covers (exec fuel (Env MStrict uk ld ft) n c) (exec fuel (Env MStrict UDefault ld ft) n c).
Proof.
  intro Hft. induction fuel as [|f IH]; intros n c; [exact I|]. rewrite !exec_S. apply exec_step_covers; assumption.
Qed.

Lemma no_filters_refine : filters_refine no_filters.
Proof. intros id uk v args r H. exact H. Qed.

(* an evaluation either succeeds or fails with UndefinedError: nothing else can go wrong in a path *)
Lemma walk_ok_or_undef g uk ks : forall obj, (exists v, walk g uk obj ks = Ok v) \/ walk g uk obj ks = Err EUndefined.
Proof.
  induction ks as [|k ks IH]; intro obj; simpl; [left; eauto|].
  destruct (step_item g uk obj k); [apply IH|left; eauto|right; reflexivity].
Qed.

Lemma eval_simple_ok_or_undef uk c r ks : (exists v, eval_simple uk c r ks = Ok v) \/ eval_simple uk c r ks = Err EUndefined.
Proof. unfold eval_simple. destruct (resolve c r); [apply walk_ok_or_undef|left; eauto]. Qed.

Lemma eval_segs_ok_or_undef uk c ss : (exists vs, eval_segs uk c ss = Ok vs) \/ eval_segs uk c ss = Err EUndefined.
Proof.
  induction ss as [|s ss IH]; simpl; [left; eauto|].
  destruct s as [st k|r ks]; simpl.
  - destruct IH as [[vs ->]| ->]; simpl; [left; eauto|right; reflexivity].
  - destruct (eval_simple_ok_or_undef uk c r ks) as [[v ->]| ->]; simpl; [|right; reflexivity].
    destruct IH as [[vs ->]| ->]; simpl; [left; eauto|right; reflexivity].
Qed.

Lemma eval_expr_ok_or_undef uk c e : (exists v, eval_expr uk c e = Ok v) \/ eval_expr uk c e = Err EUndefined.
Proof.
  destruct e as [l|p]; simpl; [left; eauto|]. unfold eval_path.
  destruct (eval_segs_ok_or_undef uk c (p_segs p)) as [[vs ->]| ->]; simpl; [|right; reflexivity].
  destruct (resolve c (p_root p)); [apply walk_ok_or_undef|left; eauto].
Qed.

(* the modelled filters (everything but an abstract one): each raises on a StrictUndefined left value *)
Definition concrete (f : filt) : Prop := match f with FGen _ _ => False | _ => True end.

Lemma apply_filter_strict_undef ft c f : concrete f -> apply_filter ft UStrict c f VUndef = Err EUndefined.
Proof.
  destruct f; simpl; intro H; try reflexivity; try contradiction.
  destruct value as [e|]; simpl; [|reflexivity].
  destruct (eval_expr_ok_or_undef UStrict c e) as [[w ->]| ->]; reflexivity.
Qed.

Lemma apply_filters_strict_undef ft c f fs : concrete f -> apply_filters ft UStrict c (f :: fs) VUndef = Err EUndefined.
Proof. intro H. simpl. rewrite (apply_filter_strict_undef ft c f H). reflexivity. Qed.

(* the first operand of a condition, the one StrictUndefined meets first *)
Definition atom_expr (a : atom) : expr := match a with CTruthy e | CEq e _ | CNe e _ | CLt e _ => e end.
Definition cond_head (cd : cond) : atom := match cd with CAtom a | CAnd a _ | COr a _ => a end.

Lemma strict_atom_raises c a : eval_expr UStrict c (atom_expr a) = Ok VUndef -> eval_atom UStrict c a = Err EUndefined.
Proof. destruct a; simpl; intro H; rewrite H; reflexivity. Qed.

(* under the default type no evaluation fails with UndefinedError *)
Lemma bind_no_undef {A B} (r : res A) (k : A -> res B) :
  r <> Err EUndefined -> (forall a, k a <> Err EUndefined) -> bind r k <> Err EUndefined.
Proof. intros Hr Hk. destruct r; simpl; [apply Hk|intro E; apply Hr; inversion E; reflexivity|discriminate]. Qed.

Lemma total_no_undef {A} (r : res A) : (exists a, r = Ok a) -> r <> Err EUndefined.
Proof. intros [a ->]. discriminate. Qed.

Lemma has_any_no_undef test attr items : has_any test attr items <> Err EUndefined.
Proof.
  induction items as [|itm items IH]; simpl; [discriminate|].
  destruct (getattr_item itm attr); try discriminate. destruct (test x); [discriminate|exact IH].
Qed.

Lemma has_filter_default_no_undef v attr w : has_filter UDefault v attr w <> Err EUndefined.
Proof.
  apply bind_no_undef; [destruct v; discriminate|]. intro items. destruct w; apply has_any_no_undef.
Qed.

(* the second condition on an abstract filter table: under the default type no filter raises UndefinedError *)
Definition filters_default_ok (ft : filter_table) : Prop := forall id v args, ft id UDefault v args <> Err EUndefined.

Lemma apply_filter_default_no_undef ft c f v : filters_default_ok ft -> apply_filter ft UDefault c f v <> Err EUndefined.
Proof.
  intro Hft. destruct f; simpl.
  - destruct v; discriminate.
  - destruct v; discriminate.
  - destruct v as [| |[|]| |[|]|[|]| |[|]|]; discriminate.
  - apply bind_no_undef; [|intro w; apply has_filter_default_no_undef].
    destruct value; [apply total_no_undef, eval_expr_default_total|discriminate].
  - apply bind_no_undef; [apply total_no_undef, eval_args_default_total|intro ws; apply Hft].
Qed.

Lemma apply_filters_default_no_undef ft c fs : filters_default_ok ft -> forall v, apply_filters ft UDefault c fs v <> Err EUndefined.
Proof.
  intro Hft. induction fs as [|f fs IH]; intro v; simpl; [discriminate|].
  apply bind_no_undef; [apply apply_filter_default_no_undef, Hft|exact IH].
Qed.

Lemma eval_fexpr_default_no_undef ft c e : filters_default_ok ft -> eval_fexpr ft UDefault c e <> Err EUndefined.
Proof.
  intro Hft. destruct e as [e0 fs]. simpl.
  apply bind_no_undef; [apply total_no_undef, eval_expr_default_total|apply apply_filters_default_no_undef, Hft].
Qed.

Lemma to_output_default_total v : exists t, to_output UDefault v = Ok t.
Proof. destruct v; simpl; eauto. Qed.

Lemma eval_atom_default_no_undef c a : eval_atom UDefault c a <> Err EUndefined.
Proof.
  destruct a as [e|e l|e l|e n]; simpl; (apply bind_no_undef; [apply total_no_undef, eval_expr_default_total|]); intro v.
  - destruct v as [| |[|]| | | | | |]; discriminate.
  - simpl. rewrite andb_false_r. discriminate.
  - simpl. rewrite andb_false_r. discriminate.
  - destruct v; discriminate.
Qed.

Lemma eval_cond_default_no_undef c cd : eval_cond UDefault c cd <> Err EUndefined.
Proof.
  induction cd as [a|a r IH|a r IH]; simpl; [apply eval_atom_default_no_undef| |];
    (apply bind_no_undef; [apply eval_atom_default_no_undef|]); intros [|]; try discriminate; exact IH.
Qed.

Lemma eval_iter_default_total c it : exists l, eval_iter UDefault c it = Ok l.
Proof.
  destruct it as [p|a b]; simpl; [|eauto].
  destruct (eval_path_default_total c p) as [v ->]. simpl. destruct v; simpl; eauto.
  destruct (fl_sequences (cfg c)); eauto. destruct s; eauto.
Qed.

Lemma arraylike_default_no_raise v : arraylike UDefault v <> ARaise.
Proof. destruct v; simpl; discriminate. Qed.

Lemma bind_params_default_total c ps kws : forall acc, exists r, bind_params UDefault c ps kws acc = Ok r.
Proof.
  induction ps as [|[p d] ps IH]; intro acc; simpl; [eauto|].
  assert (T : exists v, match last_kw p kws with
               | Some e => eval_expr UDefault c e
               | None => match d with Some e => eval_expr UDefault c e | None => Ok VUndef end
               end = Ok v).
  { destruct (last_kw p kws); [apply eval_expr_default_total|]. destruct d; [apply eval_expr_default_total|eauto]. }
  destruct T as [v ->]. simpl. apply IH.
Qed.

Lemma macro_namespace_default_total c ps kws : exists r, macro_namespace UDefault c ps kws = Ok r.
Proof.
  unfold macro_namespace. destruct (eval_kwargs_default_total c (filter (fun kv => negb (has_param (fst kv) ps)) kws) []) as [ex ->].
  simpl. apply bind_params_default_total.
Qed.

(* a run that does not end in an UndefinedError, through the combinators of exec_step *)
Definition not_undef (s : signal) : Prop := s <> Raise EUndefined.
Definition never_undef (run : node -> ctx -> outcome) : Prop := forall n c, ends (run n c) (fun _ s => not_undef s).

Lemma normal_not_undef : not_undef Normal. Proof. discriminate. Qed.

Lemma lift_not_undef {A} (r : res A) c k :
  r <> Err EUndefined -> (forall a, ends (k a) (fun _ s => not_undef s)) -> ends (lift r c k) (fun _ s => not_undef s).
Proof. intros Hr Hk. apply ends_lift; [|intros a _; apply Hk]. intros e -> E. apply Hr. inversion E. reflexivity. Qed.

Lemma seq_nodes_not_undef run l c : never_undef run -> ends (seq_nodes run l c) (fun _ s => not_undef s).
Proof. intro Hr. apply ends_seq_nodes; [intros n a _; apply Hr|exact normal_not_undef]. Qed.

Lemma loop_items_not_undef catch (f : ctx -> val -> Z -> outcome) items i c :
  (forall c v i, ends (f c v i) (fun _ s => not_undef s)) -> ends (loop_items catch f items i c) (fun _ s => not_undef s).
Proof. intro Hf. apply ends_loop_items; [intros; exact normal_not_undef|intros; apply Hf|exact normal_not_undef]. Qed.

(* an interrupt that cannot leave the template becomes a syntax error, which is not an UndefinedError either *)
Lemma run_template_not_undef md p pr run body c : never_undef run -> ends (run_template md p pr run body c) (fun _ s => not_undef s).
Proof.
  intro Hr. apply ends_after, ends_tmpl_nodes; [intros; exact normal_not_undef| |exact normal_not_undef].
  intros n a _. eapply ends_weaken; [|apply Hr]. intros c1 s Hs.
  destruct s; try exact Hs; (destruct pr; [exact Hs|discriminate]).
Qed.

Lemma exec_step_not_undef md ld ft run : filters_default_ok ft -> never_undef run -> never_undef (exec_step (Env md UDefault ld ft) run).
Proof.
  intros Hft Hr n c.
  pose proof (fun l c0 => seq_nodes_not_undef run l c0 Hr) as Hseq.
  pose proof (fun p pr body c0 => run_template_not_undef md p pr run body c0 Hr) as Htm.
  destruct n; cbn [exec_step e_uk e_mode e_loader e_filters]; try exact normal_not_undef.
  - (* output *)
    apply lift_not_undef; [apply eval_fexpr_default_no_undef, Hft|]. intro v.
    apply lift_not_undef; [apply total_no_undef, to_output_default_total|]. intro t. exact normal_not_undef.
  - (* assign *) apply lift_not_undef; [apply eval_fexpr_default_no_undef, Hft|]. intro v. exact normal_not_undef.
  - (* capture *)
    specialize (Hseq body c). destruct (seq_nodes run body c) as [c1 o1 s1|]; [|exact I].
    destruct s1; exact Hseq.
  - (* if *) apply lift_not_undef; [apply eval_cond_default_no_undef|]. intro b. apply Hseq.
  - (* for *)
    apply lift_not_undef; [apply total_no_undef, eval_iter_default_total|]. intros [|v0 items0]; [apply Hseq|].
    apply ends_after, loop_items_not_undef. intros ci v i. apply Hseq.
  - intro X; discriminate X.
  - intro X; discriminate X.
  - (* with *) apply lift_not_undef; [apply total_no_undef, eval_kwargs_default_total|]. intro nw. apply ends_after, Hseq.
  - (* include *)
    destruct (is_disabled TInclude c); [intro X; discriminate X|].
    destruct (alookup name ld) as [body|]; [|intro X; discriminate X].
    apply lift_not_undef; [apply total_no_undef, eval_kwargs_default_total|]. intro na. apply ends_after.
    destruct var as [[p alias]|]; [|apply Htm].
    apply lift_not_undef; [apply total_no_undef, eval_path_default_total|]. intro v.
    pose proof (arraylike_default_no_raise v) as Hn.
    destruct (arraylike UDefault v); [|apply Htm|congruence].
    apply loop_items_not_undef. intros ci itm i. apply Htm.
  - (* render *)
    destruct (alookup name ld) as [body|]; [|intro X; discriminate X].
    apply lift_not_undef; [apply total_no_undef, eval_kwargs_default_total|]. intro na.
    destruct var as [[[p lp] alias]|]; [|apply ends_back, Htm].
    apply lift_not_undef; [apply total_no_undef, eval_path_default_total|]. intro v.
    pose proof (arraylike_default_no_raise v) as Hn.
    destruct (if lp then arraylike UDefault v else ANot) eqn:Earr; [| |destruct lp; congruence]; apply ends_back; [|apply Htm].
    apply loop_items_not_undef. intros ci itm i. apply Htm.
  - (* call *)
    destruct (alookup name (macros c)) as [[ps body]|].
    + apply lift_not_undef; [apply total_no_undef, macro_namespace_default_total|]. intro nm. apply ends_back, Hseq.
    + apply lift_not_undef; [apply total_no_undef, to_output_default_total|]. intro t. exact normal_not_undef.
  - (* block *)
    destruct (is_disabled TBlock c); [intro X; discriminate X|].
    destruct (overrides c) as [ovs|]; [apply ends_back, Hseq|apply ends_after, Hseq].
  - (* extends *)
    destruct (alookup base ld) as [body|]; [|intro X; discriminate X]. apply ends_after, Htm.
Qed.

Lemma no_filters_default_ok : filters_default_ok no_filters.
Proof. intros id v args. discriminate. Qed.

Theorem exec_default_never_undefined fuel md ld ft : filters_default_ok ft -> never_undef (exec fuel (Env md UDefault ld ft)).
Proof.
  intro Hft. induction fuel as [|f IH]; [intros n c; exact I|].
  intros n c. rewrite exec_S. apply exec_step_not_undef; assumption.
Qed.

(* the hypothesis "strict tolerance mode" of the refinement is needed: in lax mode the UndefinedError is swallowed,
   the render "succeeds" and prints less than the default type does *)
Definition lax_witness : case :=
  Case MLax UStrict default_flags [] [] [] [] []
    [NIf (CAtom (CTruthy (EPath (Path (slit "nosuch") [])))) [NText (slit "t")] [NText (slit "f")]; NText (slit ".")].

(* A GUARDED filter looks at the undefined type only to decide whether an undefined left value (rin) or an undefined
   argument (rarg) raises; otherwise the left value counts as `empty` and an undefined argument as nil, and the result is
   a function `core` of the substituted values.  This is the shape `if is_undefined(x): ...` gives a filter. *)
Definition undef_to_nil (v : val) : val := match v with VUndef => VNil | _ => v end.

Definition guarded (rin rarg : ukind -> bool) (empty : val) (core : val -> list val -> res val)
  : ukind -> val -> list val -> res val :=
  fun uk v args =>
    if is_undef v && rin uk then Err EUndefined
    else if existsb is_undef args && rarg uk then Err EUndefined
    else core (if is_undef v then empty else v) (map undef_to_nil args).

(* every guarded filter whose guards are off for the default type satisfies the refinement condition ... *)
Theorem guarded_refines rin rarg empty core :
  rin UDefault = false -> rarg UDefault = false ->
  forall uk v args r, guarded rin rarg empty core uk v args = Ok r -> guarded rin rarg empty core UDefault v args = Ok r.
Proof.
  intros Hi Ha uk v args r. unfold guarded. rewrite Hi, Ha, !andb_false_r.
  destruct (is_undef v && rin uk); [discriminate|]. destruct (existsb is_undef args && rarg uk); [discriminate|auto].
Qed.

(* ... and, if its core never fails with UndefinedError, the "default never raises" condition *)
Theorem guarded_default_ok rin rarg empty core :
  rin UDefault = false -> rarg UDefault = false -> (forall v args, core v args <> Err EUndefined) ->
  forall v args, guarded rin rarg empty core UDefault v args <> Err EUndefined.
Proof. intros Hi Ha Hc v args. unfold guarded. rewrite Hi, Ha, !andb_false_r. apply Hc. Qed.

(* a table of guarded filters therefore satisfies the refinement condition *)
Corollary guarded_table_ok (tbl : N -> (ukind -> bool) * (ukind -> bool) * val * (val -> list val -> res val)) :
  (forall id, fst (fst (fst (tbl id))) UDefault = false /\ snd (fst (fst (tbl id))) UDefault = false) ->
  filters_refine (fun id => guarded (fst (fst (fst (tbl id)))) (snd (fst (fst (tbl id)))) (snd (fst (tbl id))) (snd (tbl id))).
Proof.
  intros H id uk v args r. destruct (H id) as [Hi Ha]. apply guarded_refines; assumption.
Qed.

(* the unguarded variant of `has` is not guarded: no guarded filter agrees with it (it violates the refinement condition).
   The attribute name is fixed so that the witness computes. *)
Theorem has_unguarded_is_not_guarded attr :
  attr = slit "a" ->
  ~ exists rin rarg empty core, rin UDefault = false /\ rarg UDefault = false /\
      forall uk v w, has_filter_unguarded uk v attr w = guarded rin rarg empty core uk v [w].
Proof.
  intros -> (rin & rarg & empty & core & Hi & Ha & H).
  pose proof (guarded_refines rin rarg empty core Hi Ha UFalsy (VList [VDict [(slit "a", VBool false)]]) [VUndef] (VBool true)) as R.
  rewrite <- !H in R. specialize (R eq_refl). vm_compute in R. discriminate.
Qed.
