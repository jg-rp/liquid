(* C25, first part: what the operations of Filters.v do - truncate, arrays as sequences, split and join, the order on
   sort keys and the stable sort by key, uniq, slices.  Props/C25.v proves the contracts from these. *)
From LiquidVerif Require Import Prelude PyPrims Filters.
From Coq Require Import ZifyBool Sorted Permutation.

Theorem truncate_contract (s : str) (n : Z) (e : str) :
  ((slen s <= n)%Z -> truncate_chars s n e = s) /\
  ((n < slen s)%Z -> exists p rest, truncate_chars s n e = p ++ e /\ s = p ++ rest /\
                                   (slen (p ++ e) <= Z.max n (slen e))%Z).
Proof.
  unfold truncate_chars. split; intro H.
  - destruct (Z.leb_spec (slen s) n); [reflexivity|lia].
  - destruct (Z.leb_spec (slen s) n); [lia|].
    unfold py_prefix. destruct (Z.ltb_spec (Z.max (n - slen e) 0) 0); [lia|].
    set (k := Z.to_nat (Z.max (n - slen e) 0)).
    exists (firstn k s), (skipn k s). split; [reflexivity|]. split; [symmetry; apply firstn_skipn|].
    unfold slen. rewrite app_length. pose proof (firstn_le_length k s). unfold slen in *. lia.
Qed.

Theorem truncatewords_contract (s : str) (n : Z) (e : str) :
  let n' := Z.max n 1 in
  (n' < MAX_TRUNC_WORDS)%Z ->
  let kept := firstn (Z.to_nat n') (words s) in
  (Z.of_nat (length kept) <= n')%Z /\
  truncatewords s n e = join_str [32%N] kept ++ (if (Z.of_nat (length (words s)) <? n')%Z then [] else e).
Proof.
  intros n' Hn kept. split.
  - unfold kept. pose proof (firstn_le_length (Z.to_nat n') (words s)). lia.
  - unfold truncatewords.
    assert (Hn' : (if (n <=? 0)%Z then 1%Z else n) = n') by (unfold n'; destruct (Z.leb_spec n 0); lia).
    rewrite Hn'. destruct (Z.leb_spec MAX_TRUNC_WORDS n'); [lia|].
    destruct (Z.ltb_spec (Z.of_nat (length (words s))) n').
    + unfold kept. rewrite firstn_all2 by lia. rewrite app_nil_r. reflexivity.
    + reflexivity.
Qed.

(* sequence_filter flattens one level: an array that holds no array is its own sequence *)
Lemma flat_map_flat l : (forall x, In x l -> match x with VList _ => False | _ => True end) ->
  flat_map (fun x => match x with VList l' => l' | _ => [x] end) l = l.
Proof.
  induction l as [|x l IH]; intro H; [reflexivity|]. cbn [flat_map].
  rewrite IH by (intros y Hy; apply H; right; exact Hy).
  specialize (H x (or_introl eq_refl)). destruct x; try reflexivity. contradiction.
Qed.

Lemma as_sequence_flat l : (forall x, In x l -> match x with VList _ => False | _ => True end) ->
  as_sequence (VList l) = Some l.
Proof. intro H. cbn [as_sequence]. rewrite (flat_map_flat l H). reflexivity. Qed.

Lemma as_sequence_map {A} (f : A -> val) l : (forall a, match f a with VList _ => False | _ => True end) ->
  as_sequence (VList (map f l)) = Some (map f l).
Proof. intro H. apply as_sequence_flat. intros x Hx. apply in_map_iff in Hx. destruct Hx as [a [<- _]]. apply H. Qed.

Lemma all_some_map {A B} (f : A -> option B) (g : A -> B) l :
  (forall x, In x l -> f x = Some (g x)) -> all_some (map f l) = Some (map g l).
Proof.
  induction l as [|x l IH]; intro H; [reflexivity|]. cbn [map all_some].
  rewrite (H x (or_introl eq_refl)), IH by (intros y Hy; apply H; right; exact Hy). reflexivity.
Qed.

Lemma is_prefix_app p s : is_prefix p s = true -> exists rest, s = p ++ rest.
Proof.
  revert s. induction p as [|a p IH]; intros s H; [exists s; reflexivity|].
  destruct s as [|b s]; [discriminate|]. cbn in H. apply andb_true_iff in H. destruct H as [Hab Hp].
  apply N.eqb_eq in Hab. subst b. destruct (IH s Hp) as [rest ->]. exists rest. reflexivity.
Qed.

Lemma split_go_nonempty sep : forall s skip cur, split_go skip sep s cur <> [].
Proof.
  induction s as [|c r IH]; intros skip cur; cbn [split_go]; [discriminate|].
  destruct skip; [|apply IH]. destruct (is_prefix sep (c :: r)); [discriminate|apply IH].
Qed.

Lemma join_cons sep x l : l <> [] -> join_str sep (x :: l) = x ++ sep ++ join_str sep l.
Proof. destruct l; [contradiction|reflexivity]. Qed.

(* the pieces still to come, joined, are the text read into [cur] followed by what is left of [s] after the skip *)
Lemma split_go_join sep : sep <> [] -> forall s skip cur,
  join_str sep (split_go skip sep s cur) = rev cur ++ skipn skip s.
Proof.
  intros Hsep. induction s as [|c r IH]; intros skip cur.
  - cbn [split_go join_str]. destruct skip; cbn [skipn]; rewrite app_nil_r; reflexivity.
  - cbn [split_go]. destruct skip as [|k]; [|rewrite IH; reflexivity].
    destruct (is_prefix sep (c :: r)) eqn:Ep.
    + rewrite join_cons by apply split_go_nonempty. rewrite IH. cbn [rev app skipn].
      destruct (is_prefix_app _ _ Ep) as [rest Hrest].
      destruct sep as [|a sep']; [contradiction|]. cbn [app] in Hrest. injection Hrest as Ha Hr. subst c r.
      cbn [length]. rewrite Nat.sub_1_r. cbn [Nat.pred]. rewrite skipn_app, skipn_all, Nat.sub_diag. reflexivity.
    + rewrite IH. cbn [rev skipn]. rewrite <- app_assoc. reflexivity.
Qed.

(* joining the pieces of a string with the separator it was split on restores the string *)
Theorem split_join_roundtrip (s sep : str) : sep <> [] -> join_str sep (py_split s sep) = s.
Proof. intro H. unfold py_split. rewrite (split_go_join sep H s 0 []). reflexivity. Qed.

Lemma str_leb_cons x a y b :
  str_leb (x :: a) (y :: b) = true <-> (x < y)%N \/ x = y /\ str_leb a b = true.
Proof.
  cbn [str_leb]. destruct (N.ltb_spec x y); [split; [left; assumption|reflexivity]|].
  destruct (N.ltb_spec y x).
  - split; [discriminate|]. intros [Hlt|[Heq _]]; lia.
  - split; [intro E; right; split; [lia|exact E]|]. intros [Hlt|[_ E]]; [lia|exact E].
Qed.

Lemma str_leb_total a : forall b, str_leb a b = false -> str_leb b a = true.
Proof.
  induction a as [|x a IH]; intros [|y b]; cbn; try discriminate; try reflexivity.
  destruct (N.ltb_spec x y); [discriminate|]. destruct (N.ltb_spec y x); [reflexivity|].
  apply IH.
Qed.

Lemma str_leb_refl a : str_leb a a = true.
Proof. pose proof (str_leb_total a a) as H. destruct (str_leb a a); [reflexivity|exact (H eq_refl)]. Qed.

Lemma str_leb_trans a : forall b c, str_leb a b = true -> str_leb b c = true -> str_leb a c = true.
Proof.
  induction a as [|x a IH]; intros [|y b] [|z c]; try discriminate; try reflexivity.
  rewrite !str_leb_cons. intros [H1|[-> H1]] [H2|[-> H2]].
  - left. lia.
  - left. exact H1.
  - left. exact H2.
  - right. split; [reflexivity|]. exact (IH b c H1 H2).
Qed.

Lemma str_leb_antisym a : forall b, str_leb a b = true -> str_leb b a = true -> a = b.
Proof.
  induction a as [|x a IH]; intros [|y b]; try discriminate; try reflexivity.
  rewrite !str_leb_cons. intros [H1|[-> H1]] [H2|[E H2]]; try lia.
  f_equal. exact (IH b H1 H2).
Qed.

Lemma skey_leb_total a b : skey_leb a b = false -> skey_leb b a = true.
Proof.
  destruct a, b; cbn; try discriminate; try reflexivity.
  - intro H. lia.
  - apply str_leb_total.
Qed.

Lemma skey_leb_trans a b c : skey_leb a b = true -> skey_leb b c = true -> skey_leb a c = true.
Proof.
  destruct a, b, c; cbn; try discriminate; try reflexivity.
  - intros. lia.
  - apply str_leb_trans.
Qed.

Section Sort.
  Context {A : Type} (key : A -> skey).
  Definition kle (a b : A) : Prop := skey_leb (key a) (key b) = true.

  Lemma insert_perm x l : Permutation (insert_by key x l) (x :: l).
  Proof.
    induction l as [|y r IH]; cbn; [reflexivity|].
    destruct (skey_leb (key x) (key y)); [reflexivity|].
    rewrite IH. apply perm_swap.
  Qed.

  Theorem sort_by_perm l : Permutation (sort_by key l) l.
  Proof.
    induction l as [|x r IH]; cbn; [reflexivity|]. rewrite insert_perm. constructor. exact IH.
  Qed.

  Lemma insert_sorted x l : StronglySorted kle l -> StronglySorted kle (insert_by key x l).
  Proof.
    induction 1 as [|y r Hs IH Hf]; cbn; [repeat constructor|].
    destruct (skey_leb (key x) (key y)) eqn:E.
    - constructor; [constructor; assumption|]. constructor; [exact E|].
      rewrite Forall_forall in *. intros z Hz. unfold kle. eapply skey_leb_trans; [exact E|apply Hf, Hz].
    - constructor; [exact IH|].
      rewrite Forall_forall in *. intros z Hz.
      apply (Permutation_in _ (insert_perm x r)) in Hz. destruct Hz as [<-|Hz]; [|apply Hf, Hz].
      apply skey_leb_total, E.
  Qed.

  Theorem sort_by_sorted l : StronglySorted kle (sort_by key l).
  Proof. induction l as [|x r IH]; cbn; [constructor|apply insert_sorted, IH]. Qed.

  (* stability: among elements with equal keys the original order is kept. Stated through filtering by key. *)
  Definition keq (k : skey) (a : A) : bool := skey_leb (key a) k && skey_leb k (key a).

  Lemma filter_insert k x l :
    filter (keq k) (insert_by key x l) = if keq k x then x :: filter (keq k) l else filter (keq k) l.
  Proof.
    induction l as [|y r IH]; cbn [insert_by filter]; [destruct (keq k x); reflexivity|].
    destruct (skey_leb (key x) (key y)) eqn:E; cbn [filter]; [reflexivity|].
    rewrite IH. destruct (keq k x) eqn:Ex, (keq k y) eqn:Ey; try reflexivity.
    (* x and y both have key k, but key y < key x strictly: impossible *)
    exfalso. unfold keq in *. apply andb_true_iff in Ex, Ey. destruct Ex as [Ex1 Ex2], Ey as [Ey1 Ey2].
    assert (skey_leb (key x) (key y) = true) by (eapply skey_leb_trans; eassumption). congruence.
  Qed.

  Theorem sort_by_stable k l : filter (keq k) (sort_by key l) = filter (keq k) l.
  Proof.
    induction l as [|x r IH]; cbn [sort_by filter]; [reflexivity|].
    rewrite filter_insert, IH. reflexivity.
  Qed.
End Sort.

(* sort and sort_natural pair every item with its key, sort the pairs by the key and drop the keys again: that is
   sorting the items by the key function *)
Lemma insert_decorated {A B} (g : A -> skey) (h : A -> B) x l :
  insert_by fst (g x, h x) (map (fun y => (g y, h y)) l) = map (fun y => (g y, h y)) (insert_by g x l).
Proof.
  induction l as [|y l IH]; cbn; [reflexivity|].
  destruct (skey_leb (g x) (g y)); cbn; [reflexivity|]. rewrite IH. reflexivity.
Qed.

Lemma sort_decorated {A B} (g : A -> skey) (h : A -> B) l :
  map snd (sort_by fst (map (fun y => (g y, h y)) l)) = map h (sort_by g l).
Proof.
  assert (H : sort_by fst (map (fun y => (g y, h y)) l) = map (fun y => (g y, h y)) (sort_by g l)).
  { induction l as [|x l IH]; cbn; [reflexivity|]. rewrite IH. apply insert_decorated. }
  rewrite H, map_map. reflexivity.
Qed.

(* with two items or more, sort compares: the items must all be ints or all be strings *)
Lemma f_sort_compared v l : as_sequence v = Some l -> 2 <= length l ->
  f_sort v = match homogeneous l with
             | Some kl => FOk (VList (map snd (sort_by fst kl)))
             | None => FErr ELiquid
             end.
Proof.
  intros Hs Hl. unfold f_sort. rewrite Hs.
  destruct l as [|x [|y l]]; [cbn in Hl; lia|cbn in Hl; lia|reflexivity].
Qed.

Lemma homogeneous_ints zs : homogeneous (map VInt zs) = Some (map (fun z => (KInt z, VInt z)) zs).
Proof.
  transitivity (all_some (map (fun v => match v with VInt z => Some (KInt z, v) | _ => None end) (map VInt zs))).
  - destruct zs; reflexivity.
  - rewrite map_map. apply all_some_map. reflexivity.
Qed.

Fixpoint val_eqb_refl (a : val) : val_eqb a a = true.
Proof.
  destruct a as [| |b|z|m e|s|l|d]; cbn [val_eqb]; try reflexivity.
  - apply eqb_reflx.
  - apply Z.eqb_refl.
  - rewrite Z.eqb_refl, Nat.eqb_refl. reflexivity.
  - apply str_eqb_refl.
  - induction l as [|x l IH]; [reflexivity|]. rewrite (val_eqb_refl x). exact IH.
  - induction d as [|[k x] d IH]; [reflexivity|]. rewrite str_eqb_refl, (val_eqb_refl x). exact IH.
Qed.

Lemma memv_app x a b : memv x (a ++ b) = memv x a || memv x b.
Proof. induction a as [|y a IH]; cbn; [reflexivity|]. rewrite IH, orb_assoc. reflexivity. Qed.

Lemma uniq_mem x : forall l seen, memv x (uniq_go l seen) = true -> memv x l = true.
Proof.
  induction l as [|y l IH]; intros seen H; cbn in *; [exact H|].
  destruct (memv y seen).
  - rewrite (IH _ H). apply orb_true_r.
  - cbn in H. apply orb_true_iff in H. destruct H as [H|H]; [rewrite H; reflexivity|].
    rewrite (IH _ H). apply orb_true_r.
Qed.

Lemma uniq_length : forall l seen, length (uniq_go l seen) <= length l.
Proof.
  induction l as [|y l IH]; intro seen; cbn; [lia|].
  destruct (memv y seen); [specialize (IH seen); lia|]. cbn. specialize (IH (y :: seen)). lia.
Qed.

Fixpoint no_repeat (l : list val) : bool :=
  match l with [] => true | x :: r => negb (memv x r) && no_repeat r end.

Theorem uniq_head_kept x l : uniq_go (x :: l) [] = x :: uniq_go l [x].
Proof. reflexivity. Qed.

Theorem uniq_drops_seen x l seen : memv x seen = true -> uniq_go (x :: l) seen = uniq_go l seen.
Proof. intro H. cbn. rewrite H. reflexivity. Qed.

Theorem where_reject_partition {A} (p : A -> bool) l :
  Permutation (filter p l ++ filter (fun x => negb (p x)) l) l.
Proof.
  induction l as [|x l IH]; cbn; [reflexivity|]. destruct (p x); cbn.
  - constructor. exact IH.
  - rewrite <- Permutation_middle. constructor. exact IH.
Qed.

Lemma num_leb_int x y : num_leb (NInt x) (NInt y) = (x <=? y)%Z.
Proof. unfold num_leb. cbn [num_e Nat.max scale]. unfold pow10. cbn [Z.of_nat Z.pow]. rewrite !Z.mul_1_r. reflexivity. Qed.

Lemma clamp63_id z : (-9223372036854775808 <= z <= 9223372036854775807)%Z -> clamp63 z = z.
Proof. unfold clamp63. lia. Qed.

(* l[a : a+n] for a, n >= 0: n items from position a, or as many as there are *)
Lemma py_slice_nonneg {A} (l : list A) (a n : Z) : (0 <= a)%Z -> (0 <= n)%Z ->
  py_slice l a (Some (a + n)%Z) = firstn (Z.to_nat n) (skipn (Z.to_nat a) l).
Proof.
  intros Ha Hn. unfold py_slice, norm_idx.
  destruct (Z.ltb_spec a 0); [lia|]. destruct (Z.ltb_spec (a + n) 0); [lia|].
  set (len := Z.of_nat (length l)).
  destruct (Z.le_gt_cases a len) as [Hle|Hgt].
  - rewrite (Z.min_l a len Hle). destruct (Z.le_gt_cases (a + n) len).
    + rewrite Z.min_l by assumption. f_equal. lia.
    + rewrite Z.min_r by lia.
      rewrite !firstn_all2 by (rewrite skipn_length; unfold len in *; lia). reflexivity.
  - rewrite !skipn_all2 by (unfold len in *; lia). rewrite !firstn_nil. reflexivity.
Qed.

(* l[-k:] for 1 <= k <= len(l): the last k items *)
Lemma py_slice_last {A} (l : list A) (k : Z) : (1 <= k <= Z.of_nat (length l))%Z ->
  py_slice l (- k) None = skipn (length l - Z.to_nat k) l.
Proof.
  intro Hk. unfold py_slice, norm_idx. destruct (Z.ltb_spec (- k) 0); [|lia].
  replace (Z.to_nat (Z.max 0 (Z.of_nat (length l) + - k))) with (length l - Z.to_nat k) by lia.
  apply firstn_all2. rewrite skipn_length. lia.
Qed.
