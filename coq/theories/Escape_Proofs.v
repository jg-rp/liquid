(* C05 -- proofs about the autoescape model.
   One generic invariant theorem (exec_inv): for any predicate Q on texts that is closed under concatenation, holds of
   the empty text, of every escaped text, of printed numbers, of one space and of every literal of the template, and is
   preserved by the text function of every filter the template may use, every safe (Markup) value in the state satisfies
   Q and so does the output.
   Instances: Q = no raw < > quote (all filters) and Q = that plus every ampersand starts an entity (filters that do not
   cut or edit).
   One simulation theorem (exec_rel): on texts without special characters the interpreter with autoescape on and the one
   with autoescape off run in lock step. *)
From LiquidVerif Require Import Prelude Escape.
Local Open Scope N_scope.

Lemma Forall_firstn {A} (P : A -> Prop) n l : Forall P l -> Forall P (firstn n l).
Proof. intro H. revert n. induction H; destruct n; simpl; constructor; auto. Qed.
Lemma Forall_skipn {A} (P : A -> Prop) n l : Forall P l -> Forall P (skipn n l).
Proof. intro H. revert n. induction H; destruct n; simpl; auto. Qed.
Lemma Forall_slice {A} (P : A -> Prop) l a b : Forall P l -> Forall P (liquid_slice l a b).
Proof. intro H. unfold liquid_slice, py_slice. apply Forall_firstn, Forall_skipn. assumption. Qed.

Lemma alookup_map {A B} (g : A -> B) x (l : list (str * A)) :
  alookup x (map (fun b => (fst b, g (snd b))) l) = option_map g (alookup x l).
Proof. induction l as [|[k a] r IH]; simpl; [reflexivity|]. destruct (str_eqb x k); [reflexivity|exact IH]. Qed.

(* the map apply_filter writes out in its url_decode case *)
Definition plus_to_space (t : str) : str := map (fun c => if c =? 43 then 32 else c) t.

(* what the text function of a filter must preserve for Q to be an invariant of Markup texts; the filters that build their
   result with the Markup algebra alone, or give a plain string, ask nothing *)
Definition filter_closed (Q : str -> Prop) (f : filter) : Prop :=
  match f with
  | FUpcase => forall t, Q t -> Q (map up t)
  | FDowncase => forall t, Q t -> Q (map low t)
  | FCapitalize => forall t, Q t -> Q (capitalize_s t)
  | FStrip => forall t, Q t -> Q (strip_s t)
  | FLstrip => forall t, Q t -> Q (lstrip_s t)
  | FRstrip => forall t, Q t -> Q (rstrip_s t)
  | FReplace _ _ | FRemove _ => forall s old new, Q s -> Q new -> Q (py_replace s old new)
  | FSlice st ln => forall t, Q t -> Q (liquid_slice t st ln)
  | FSplit _ => forall s sep, Q s -> Forall Q (py_split s sep)
  | FOpaque OUrlDecode _ => forall t, Q t -> Q (plus_to_space t)
  | FTrans _ _ _ _ => forall r t, Q t -> (forall k, Q (r k)) -> Q (format_message r t)
  | _ => True
  end.

Section Generic.
  Variable Q : str -> Prop.
  Variable pt : str -> bool.
  Variable pf : filter -> bool.
  Hypothesis q_nil : Q [].
  Hypothesis q_app : forall a b, Q a -> Q b -> Q (a ++ b).
  Hypothesis q_esc : forall t, Q (escape t).
  Hypothesis q_lit : forall t, pt t = true -> Q t.
  Hypothesis q_digits : forall n, Q (nat_to_str n).
  Hypothesis q_space : Q [32].
  Hypothesis q_filter : forall f, pf f = true -> filter_closed Q f.

  (* only what is marked safe is constrained *)
  Definition good (s : sstr) : Prop := sf s = true -> Q (tx s).
  Definition Inv (v : value) : Prop :=
    match v with VS s => good s | VL l => Forall good l | _ => True end.

  Lemma good_plain t : good (plain t).
  Proof. intro H. discriminate H. Qed.
  Lemma good_markup t : Q t -> good (markup t).
  Proof. intros H _. exact H. Qed.

  Lemma esc_arg_Q s : good s -> Q (esc_arg s).
  Proof. unfold esc_arg, good. destruct (sf s); auto. Qed.
  Lemma out_str_Q s : good s -> Q (out_str true s).
  Proof. apply esc_arg_Q. Qed.

  Lemma join_Q sep : Q sep -> forall l, Forall Q l -> Q (join_str sep l).
  Proof.
    intros Hs l H. induction H as [|x r Hx Hr IH]; simpl; auto.
    destruct r; auto.
  Qed.

  Lemma concat_Q l : Forall Q l -> Q (concat l).
  Proof. induction 1; simpl; auto. Qed.

  Lemma to_liquid_string_Q v : Inv v -> Q (to_liquid_string true v).
  Proof.
    destruct v; simpl; auto.
    - apply out_str_Q.
    - intro H. apply concat_Q, Forall_map. exact (Forall_impl _ out_str_Q H).
  Qed.

  Lemma as_string_good v : Inv v -> good (as_string v).
  Proof. destruct v; simpl; auto; intros; apply good_plain. Qed.
  Lemma py_str_of_good v : Inv v -> good (py_str_of v).
  Proof. destruct v; simpl; auto; intros; apply good_plain. Qed.

  (* the Markup algebra keeps Markup texts in Q *)
  Lemma mmap_good f s : (forall t, Q t -> Q (f t)) -> good s -> good (mmap f s).
  Proof. intros Hf Hs E. apply Hf, Hs, E. Qed.

  Lemma madd_good a b : good a -> good b -> good (madd a b).
  Proof.
    intros Ha Hb. unfold madd. destruct (sf a) eqn:Ea.
    - apply good_markup. apply q_app; [apply Ha; assumption|apply esc_arg_Q; assumption].
    - destruct (sf b) eqn:Eb; [|apply good_plain].
      apply good_markup. apply q_app; [apply q_esc|apply Hb; assumption].
  Qed.

  Lemma mjoin_good sep items : good sep -> Forall good items -> good (mjoin sep items).
  Proof.
    intros Hs Hi. unfold mjoin. destruct (sf sep) eqn:E; [|apply good_plain].
    apply good_markup. apply join_Q; [apply Hs; assumption|].
    apply Forall_map. exact (Forall_impl _ esc_arg_Q Hi).
  Qed.

  Lemma mreplace_good s old new :
    (forall t o n, Q t -> Q n -> Q (py_replace t o n)) -> good s -> good new -> good (mreplace s old new).
  Proof.
    intros Hcl Hs Hn. unfold mreplace. destruct (sf s) eqn:E; [|apply good_plain].
    apply good_markup. apply Hcl; [apply Hs; assumption|apply esc_arg_Q; assumption].
  Qed.

  Lemma split_chars_inv s : Inv (split_chars s).
  Proof. apply Forall_map, Forall_forall. intros c _. apply good_plain. Qed.

  Lemma split_on_inv s sp : (forall t sep, Q t -> Forall Q (py_split t sep)) -> good s -> Inv (split_on s sp).
  Proof.
    intros Hcl Hs. unfold split_on. destruct (tx sp) as [|c sep]; [apply split_chars_inv|].
    destruct (_ || _); [constructor|].
    apply Forall_map. unfold good; simpl. apply Forall_forall. intros t Ht E.
    pose proof (Hcl (tx s) (c :: sep) (Hs E)) as Hall. rewrite Forall_forall in Hall. apply Hall, Ht.
  Qed.

  Section Filters.
    Variable look : str -> value.
    Hypothesis look_inv : forall x, Inv (look x).

    Lemma eval_atom_inv a : atom_ok pt a = true -> Inv (eval_atom true look a).
    Proof. destruct a; simpl; intro H; [|apply look_inv]. apply good_markup, q_lit, H. Qed.

    Lemma atom_good a : atom_ok pt a = true -> good (as_string (eval_atom true look a)).
    Proof. intro H. apply as_string_good, eval_atom_inv, H. Qed.

    (* registered by hand, the value a translation filter is applied to is trusted: it is a template literal, hence a Markup *)
    Definition is_markup (v : value) : Prop := exists s, v = VS s /\ sf s = true.
    Definition trusted (f : filter) (v : value) : Prop :=
      match f with FTrans _ false _ _ => is_markup v | _ => True end.

    Lemma tr_left_Q aem v : Inv v -> (aem = false -> is_markup v) -> Q (tr_left true aem v).
    Proof.
      intros Hv Ht. unfold tr_left. destruct aem; simpl.
      - apply to_liquid_string_Q. assumption.
      - destruct (Ht eq_refl) as (s & -> & Hs). apply Hv. assumption.
    Qed.

    Lemma tr_plural_Q k aem a : atom_ok pt a = true -> (aem = false -> is_lit a = true) -> Q (tr_plural true look TrCurrent k aem a).
    Proof.
      intros Ha Hl. unfold tr_plural. destruct aem; simpl.
      - apply to_liquid_string_Q. apply eval_atom_inv. assumption.
      - specialize (Hl eq_refl). destruct a; [|discriminate]. apply q_lit. assumption.
    Qed.

    Lemma tr_pick_Q k aem v pl n :
      Q (tr_left true aem v) -> atom_ok pt pl = true -> (aem = false -> is_lit pl = true) ->
      Q (tr_pick true look TrCurrent k aem v pl n).
    Proof. intros HL Hp Hpl. unfold tr_pick. destruct (Nat.eqb n 1); [exact HL|apply tr_plural_Q; assumption]. Qed.

    Lemma tr_resolve_Q aem kw name : forallb (fun b => atom_ok pt (snd b)) kw = true -> Q (tr_resolve true look TrCurrent aem kw name).
    Proof.
      intro Hkw. unfold tr_resolve, tr_kwv. apply to_liquid_string_Q. rewrite alookup_map.
      destruct (alookup name kw) as [a|] eqn:E; [|apply look_inv].
      apply eval_atom_inv. exact (alookup_forallb _ _ _ _ Hkw E).
    Qed.

    (* filter_ok's condition on the keyword arguments of a hand-registered t: a plural, if given, is a literal *)
    Lemma alookup_plural_lit (kw : list (str * atom)) pl :
      forallb (fun b => is_lit (snd b) || negb (str_eqb (fst b) [112; 108; 117; 114; 97; 108])) kw = true ->
      alookup s_plural kw = Some pl -> is_lit pl = true.
    Proof.
      intros H E. apply alookup_In in E. rewrite forallb_forall in H. specialize (H _ E). cbn [fst snd] in H.
      unfold s_plural in H. rewrite str_eqb_refl, orb_false_r in H. exact H.
    Qed.

    Lemma tr_t_text_Q aem kw v :
      Q (tr_left true aem v) -> forallb (fun b => atom_ok pt (snd b)) kw = true ->
      (aem = false -> forall pl, alookup s_plural kw = Some pl -> is_lit pl = true) ->
      Q (tr_t_text true look TrCurrent aem kw v).
    Proof.
      intros HL Hkw Hlit. unfold tr_t_text. destruct (alookup s_plural kw) as [pl|] eqn:Epl; [|exact HL].
      destruct (t_count _) as [n|]; [|exact HL].
      assert (Hpick : Q (tr_pick true look TrCurrent TT aem v pl n)).
      { apply tr_pick_Q; [exact HL|exact (alookup_forallb _ _ _ _ Hkw Epl)|].
        intro E. exact (Hlit E pl eq_refl). }
      destruct (eval_atom true look pl); assumption.
    Qed.

    Lemma tr_text_Q k aem args kw v t :
      Inv v -> (aem = false -> is_markup v) ->
      forallb (atom_ok pt) args = true -> forallb (fun b => atom_ok pt (snd b)) kw = true ->
      (aem = false -> msg_args_lit k args = true /\ forall pl, alookup s_plural kw = Some pl -> is_lit pl = true) ->
      tr_text true look TrCurrent k aem args kw v = Some t -> Q t.
    Proof.
      intros Hv Ht Hargs Hkw Hlit H.
      pose proof (tr_left_Q aem v Hv Ht) as HL.
      assert (Ht_text : Q (tr_t_text true look TrCurrent aem kw v)).
      { apply tr_t_text_Q; [exact HL|exact Hkw|]. intro E. exact (proj2 (Hlit E)). }
      assert (Hpick : forall pl cnt, In pl args -> (aem = false -> is_lit pl = true) ->
                match count_arg (eval_atom true look cnt) with Some n => Some (tr_pick true look TrCurrent k aem v pl n) | None => None end = Some t -> Q t).
      { intros pl cnt Hin Hpl E. destruct (count_arg _); [|discriminate E]. injection E as <-.
        apply tr_pick_Q; [exact HL| |exact Hpl]. rewrite forallb_forall in Hargs. apply Hargs, Hin. }
      unfold tr_text in H. destruct k.
      - destruct args as [|? [|? ?]]; try discriminate H; injection H as <-; exact Ht_text.
      - destruct args; [|discriminate H]. injection H as <-. exact HL.
      - destruct args as [|pl [|cnt [|? ?]]]; try discriminate H.
        apply Hpick in H; [exact H|left; reflexivity|]. intro E. exact (proj1 (Hlit E)).
      - destruct args as [|? [|? ?]]; try discriminate H. injection H as <-. exact HL.
      - destruct args as [|? [|pl [|cnt [|? ?]]]]; try discriminate H.
        apply Hpick in H; [exact H|right; left; reflexivity|]. intro E. exact (proj1 (Hlit E)).
    Qed.

    Lemma apply_filter_inv f v : filter_ok pt pf f = true -> Inv v -> trusted f v -> Inv (apply_filter true look f v).
    Proof.
      intros Hok Hv Htr. unfold filter_ok in Hok. apply andb_true_iff in Hok. destruct Hok as [Hpf Hargs].
      pose proof (q_filter f Hpf) as Hcl. pose proof (as_string_good v Hv) as Hs.
      destruct f; simpl in Hcl |- *.
      - (* escape *) apply good_markup, q_esc.
      - (* escape_once *) apply good_plain.
      - apply mmap_good; assumption.
      - apply mmap_good; assumption.
      - apply mmap_good; assumption.
      - apply mmap_good; assumption.
      - apply mmap_good; assumption.
      - apply mmap_good; assumption.
      - (* append *) apply madd_good; [exact Hs|apply atom_good, Hargs].
      - (* prepend *) apply madd_good; [apply atom_good, Hargs|exact Hs].
      - (* replace *) apply andb_true_iff in Hargs. destruct Hargs as [_ Hn].
        apply mreplace_good; [exact Hcl|exact Hs|apply atom_good, Hn].
      - (* remove *) apply mreplace_good; [exact Hcl|exact Hs|]. intros _. exact q_nil.
      - (* slice *) destruct v; try (apply mmap_good; [exact Hcl|apply py_str_of_good, Hv]).
        apply Forall_slice, Hv.
      - (* split *) destruct (eval_atom true look sep); try (apply split_on_inv; assumption). apply split_chars_inv.
      - (* join *)
        apply mjoin_good.
        + destruct (str_eqb _ _); [apply good_markup, q_space|].
          destruct sep as [a|]; [apply atom_good, Hargs|apply good_markup, q_space].
        + destruct v; try exact Hv; constructor; try apply (py_str_of_good _ Hv); constructor.
      - (* first *) destruct v as [|[|x l]| | |]; try exact I. exact (Forall_inv Hv).
      - (* last *) destruct v; try exact I. apply Forall_rev in Hv. destruct (rev l); [exact I|exact (Forall_inv Hv)].
      - (* default *) pose proof (eval_atom_inv d Hargs) as Hd.
        destruct v as [s|[|x l]| | |]; try assumption. destruct (tx s); assumption.
      - (* size *) exact I.
      - (* translation filters *)
        apply andb_true_iff in Hargs. destruct Hargs as [Hargs Hlit]. apply andb_true_iff in Hargs. destruct Hargs as [Hargs Hkw].
        unfold trans_apply. destruct (tr_text true look TrCurrent k aem args kw v) as [t|] eqn:Et; [|exact I].
        apply good_markup, Hcl; [|intro name; apply tr_resolve_Q, Hkw].
        apply (tr_text_Q k aem args kw v t Hv); try assumption.
        + intros ->. exact Htr.
        + intros ->. apply andb_true_iff in Hlit. split; [apply Hlit|]. intro pl. apply alookup_plural_lit, Hlit.
      - (* opaque *) destruct (sf (as_string v)) eqn:E; simpl; [|apply good_plain].
        destruct k; try apply good_plain; [exact Hs|].
        destruct (contains_char 37 (tx (as_string v))); [apply good_plain|].
        apply good_markup, (Hcl (tx (as_string v))), Hs, E.
    Qed.

    Lemma eval_expr_inv e : expr_ok pt pf e = true -> Inv (eval_expr true look e).
    Proof.
      induction e as [a|e IH f]; simpl; intro H; [apply eval_atom_inv; assumption|].
      apply andb_true_iff in H. destruct H as [H Hin]. apply andb_true_iff in H. destruct H as [He Hf]. apply apply_filter_inv; auto.
      destruct f; try exact I. destruct aem; [exact I|]. destruct e as [[s|x]|]; try discriminate Hin. eexists; split; reflexivity.
    Qed.

  End Filters.

  Definition scope_inv (sc : list (str * value)) : Prop := Forall (fun kv => Inv (snd kv)) sc.
  Definition state_inv (st : state) : Prop :=
    Forall scope_inv (st_scopes st) /\ scope_inv (st_locals st) /\ scope_inv (st_globals st).

  Lemma alookup_inv x sc v : scope_inv sc -> alookup x sc = Some v -> Inv v.
  Proof.
    intros H E. apply alookup_In in E. unfold scope_inv in H. rewrite Forall_forall in H. exact (H _ E).
  Qed.

  Lemma first_hit_inv x scs v : Forall scope_inv scs -> first_hit x scs = Some v -> Inv v.
  Proof.
    induction 1 as [|sc r Hsc Hr IH]; simpl; [discriminate|].
    destruct (alookup x sc) eqn:E; [intro E'; inversion E'; subst; eapply alookup_inv; eassumption|exact IH].
  Qed.

  Lemma lookup_inv st x : state_inv st -> Inv (lookup st x).
  Proof.
    intros (Hs & Hl & Hg). unfold lookup.
    destruct (first_hit x (st_scopes st ++ [st_locals st; st_globals st])) eqn:E; [|exact I].
    eapply first_hit_inv; [|exact E]. apply Forall_app. split; auto.
  Qed.

  Lemma eval_inv st e : state_inv st -> expr_ok pt pf e = true -> Inv (eval true st e).
  Proof. intros Hst He. apply eval_expr_inv; [intro x; apply lookup_inv, Hst|exact He]. Qed.
  Lemma evala_inv st a : state_inv st -> atom_ok pt a = true -> Inv (evala true st a).
  Proof. intros Hst Ha. apply eval_atom_inv; [intro x; apply lookup_inv, Hst|exact Ha]. Qed.

  Lemma set_local_inv st x v : state_inv st -> Inv v -> state_inv (set_local st x v).
  Proof. intros (Hs & Hl & Hg) Hv. repeat split; simpl; auto. constructor; auto. Qed.
  Lemma push_scope_inv st sc : state_inv st -> scope_inv sc -> state_inv (push_scope st sc).
  Proof. intros (Hs & Hl & Hg) Hv. repeat split; simpl; auto. Qed.
  Lemma pop_scope_inv st : state_inv st -> state_inv (pop_scope st).
  Proof. intros (Hs & Hl & Hg). repeat split; simpl; auto. destruct Hs; simpl; auto. Qed.

  Lemma bind_args_inv st binds :
    state_inv st -> forallb (fun b => atom_ok pt (snd b)) binds = true -> scope_inv (bind_args true st binds).
  Proof.
    intros Hst H. apply Forall_map, Forall_forall. intros b Hb. rewrite forallb_forall in H.
    apply evala_inv; [exact Hst|apply H, Hb].
  Qed.

  Lemma loop_items_inv v : Inv v -> Forall Inv (loop_items v).
  Proof.
    destruct v; simpl; auto.
    - intro H. destruct (tx s); constructor; auto.
    - intro H. apply Forall_map. exact H.
  Qed.

  (* the message of a translate tag *)
  Lemma segments_Q st m :
    state_inv st -> forallb (fun g => match g with MText t => pt t | MVar _ => true end) m = true ->
    Q (concat (map (fun g => match g with MText t => t | MVar x => to_liquid_string true (lookup st x) end) m)).
  Proof.
    intros Hst Hm. apply concat_Q, Forall_map, Forall_forall. intros g Hg. rewrite forallb_forall in Hm. specialize (Hm g Hg).
    destruct g; [apply q_lit, Hm|apply to_liquid_string_Q, lookup_inv, Hst].
  Qed.

  (* a run keeps the invariant: what it prints is in Q and the state it leaves satisfies state_inv *)
  Definition keeps (r : res (str * state)) : Prop := forall out st', r = Ok (out, st') -> Q out /\ state_inv st'.

  Lemma keeps_ok out st : Q out -> state_inv st -> keeps (Ok (out, st)).
  Proof. intros Ho Hs o s E. injection E as <- <-. split; assumption. Qed.

  Lemma keeps_bind r k : keeps r -> (forall o st, Q o -> state_inv st -> keeps (k (o, st))) -> keeps (bind r k).
  Proof.
    intros Hr Hk. destruct r as [[o st]|e|]; simpl; try (intros ? ? E; discriminate E).
    destruct (Hr o st eq_refl). apply Hk; assumption.
  Qed.

  Lemma keeps_seq r (k : state -> res (str * state)) :
    keeps r -> (forall st, state_inv st -> keeps (k st)) ->
    keeps (do x <- r; let '(o1, st1) := x in do y <- k st1; let '(o2, st2) := y in Ok (o1 ++ o2, st2)).
  Proof.
    intros Hr Hk. apply keeps_bind; [exact Hr|]. intros o1 st1 Q1 I1.
    apply keeps_bind; [apply Hk, I1|]. intros o2 st2 Q2 I2. apply keeps_ok; auto.
  Qed.

  Lemma for_loop_keeps (run : state -> res (str * state)) x :
    (forall st, state_inv st -> keeps (run st)) ->
    forall items st, Forall Inv items -> state_inv st -> keeps (for_loop run x items st).
  Proof.
    intros Hrun items. induction items as [|it more IH]; intros st Hit Hst; cbn [for_loop].
    - apply keeps_ok; assumption.
    - apply keeps_seq.
      + apply Hrun, push_scope_inv; [exact Hst|]. constructor; [exact (Forall_inv Hit)|constructor].
      + intros st1 I1. apply IH; [exact (Forall_inv_tail Hit)|apply pop_scope_inv, I1].
  Qed.

  Lemma exec_keeps : forall fuel st p,
    forallb (stmt_ok pt pf) p = true -> state_inv st -> keeps (exec true fuel st p).
  Proof.
    induction fuel as [|f IH]; intros st p Hp Hst; [intros ? ? E; discriminate E|].
    destruct p as [|s rest]; [apply keeps_ok; assumption|].
    cbn [forallb] in Hp. apply andb_true_iff in Hp. destruct Hp as [Hs Hrest].
    cbn [exec]. apply keeps_seq; [|intros st1 I1; apply IH; assumption].
    destruct s; cbn [stmt_ok] in Hs.
    - (* translate tag *)
      apply andb_true_iff in Hs. destruct Hs as [Hs Hpl]. apply andb_true_iff in Hs. destruct Hs as [Hb Hsing].
      cbv zeta. apply keeps_ok; [|exact Hst].
      apply segments_Q; [apply push_scope_inv; [exact Hst|apply bind_args_inv; assumption]|].
      destruct plural as [p0|]; [|exact Hsing]. destruct (Nat.eqb _ 1); assumption.
    - apply keeps_ok; [apply q_lit, Hs|exact Hst].
    - apply keeps_ok; [apply to_liquid_string_Q, eval_inv; assumption|exact Hst].
    - apply keeps_ok; [exact q_nil|apply set_local_inv; [exact Hst|apply eval_inv; assumption]].
    - (* capture *)
      apply keeps_bind; [apply IH; assumption|]. intros o st1 Qo I1.
      apply keeps_ok; [exact q_nil|apply set_local_inv; [exact I1|apply good_markup, Qo]].
    - (* if *)
      apply andb_true_iff in Hs. destruct Hs as [Hs Hels]. apply andb_true_iff in Hs. destruct Hs as [_ Hbody].
      cbv zeta. apply IH; [|exact Hst]. destruct (match c with CTruthy _ => _ | _ => _ end); assumption.
    - (* for *)
      apply andb_true_iff in Hs. destruct Hs as [He Hbody].
      apply for_loop_keeps; [intros st0 I0; apply IH; assumption|apply loop_items_inv, eval_inv; assumption|exact Hst].
    - (* cycle *)
      cbv zeta. apply keeps_ok; [|exact Hst]. apply to_liquid_string_Q.
      destruct (nth_error args _) as [a|] eqn:En; [|exact I].
      apply evala_inv; [exact Hst|]. rewrite forallb_forall in Hs. exact (Hs a (nth_error_In _ _ En)).
    - (* include *)
      apply andb_true_iff in Hs. destruct Hs as [Hb Hbody].
      apply keeps_bind; [apply IH; [exact Hbody|apply push_scope_inv; [exact Hst|apply bind_args_inv; assumption]]|].
      intros o st1 Qo I1. apply keeps_ok; [exact Qo|apply pop_scope_inv, I1].
    - (* render *)
      apply andb_true_iff in Hs. destruct Hs as [Hb Hbody].
      apply keeps_bind; [apply IH; [exact Hbody|]|intros o st1 Qo _; apply keeps_ok; assumption].
      split; [constructor; [apply bind_args_inv; assumption|constructor]|split; [constructor|apply Hst]].
  Qed.

  Theorem exec_inv : forall fuel st p out st',
    forallb (stmt_ok pt pf) p = true -> state_inv st ->
    exec true fuel st p = Ok (out, st') -> Q out /\ state_inv st'.
  Proof. intros fuel st p out st' Hp Hst. exact (exec_keeps fuel st p Hp Hst out st'). Qed.
End Generic.

Lemma eqb_of_ne a b : a <> b -> (a =? b) = false.
Proof. apply N.eqb_neq. Qed.

Lemma up_cases c : up c = c \/ (97 <= c <= 122 /\ up c = c - 32).
Proof.
  unfold up. destruct ((97 <=? c) && (c <=? 122)) eqn:E; [right|left; reflexivity].
  apply andb_true_iff in E. rewrite !N.leb_le in E. split; [exact E|reflexivity].
Qed.
Lemma low_cases c : low c = c \/ (65 <= c <= 90 /\ low c = c + 32).
Proof.
  unfold low. destruct ((65 <=? c) && (c <=? 90)) eqn:E; [right|left; reflexivity].
  apply andb_true_iff in E. rewrite !N.leb_le in E. split; [exact E|reflexivity].
Qed.

(* character-wise closure of the string functions *)
Section AllP.
  Variable P : N -> bool.
  Definition allP (s : str) : bool := forallb P s.

  Lemma allP_app a b : allP (a ++ b) = allP a && allP b.
  Proof. apply forallb_app. Qed.
  Lemma allP_app_true a b : allP a = true -> allP b = true -> allP (a ++ b) = true.
  Proof. intros Ha Hb. rewrite allP_app, Ha, Hb. reflexivity. Qed.

  Lemma allP_Forall s : allP s = true <-> Forall (fun c => P c = true) s.
  Proof. unfold allP. rewrite forallb_forall, Forall_forall. reflexivity. Qed.

  Lemma allP_rev s : allP (rev s) = allP s.
  Proof. apply forallb_rev. Qed.

  Lemma allP_slice s a b : allP s = true -> allP (liquid_slice s a b) = true.
  Proof. rewrite !allP_Forall. apply Forall_slice. Qed.

  Lemma allP_lstrip s : allP s = true -> allP (lstrip_s s) = true.
  Proof. induction s as [|c r IH]; simpl; auto. intro H. destruct (is_space c); [|exact H]. apply andb_true_iff in H. destruct H. auto. Qed.
  Lemma allP_rstrip s : allP s = true -> allP (rstrip_s s) = true.
  Proof. intro H. unfold rstrip_s. rewrite allP_rev. apply allP_lstrip. rewrite allP_rev. exact H. Qed.
  Lemma allP_strip s : allP s = true -> allP (strip_s s) = true.
  Proof. intro. unfold strip_s. apply allP_rstrip, allP_lstrip. assumption. Qed.

  Lemma allP_split_go sep : forall s skip cur, allP s = true -> allP cur = true ->
    Forall (fun t => allP t = true) (split_go skip sep s cur).
  Proof.
    induction s as [|c r IH]; intros skip cur Hs Hc; simpl.
    - constructor; [rewrite allP_rev; exact Hc|constructor].
    - simpl in Hs. apply andb_true_iff in Hs. destruct Hs as [Hc0 Hr].
      destruct skip; [|apply IH; auto].
      destruct (is_prefix sep (c :: r)).
      + constructor; [rewrite allP_rev; exact Hc|]. apply IH; auto.
      + apply IH; auto. simpl. rewrite Hc0, Hc. reflexivity.
  Qed.

  Lemma allP_split s sep : allP s = true -> Forall (fun t => allP t = true) (py_split s sep).
  Proof. intro. unfold py_split. apply allP_split_go; auto. Qed.

  Lemma allP_join sep l : allP sep = true -> Forall (fun t => allP t = true) l -> allP (join_str sep l) = true.
  Proof.
    intros Hs H. induction H as [|x r Hx Hr IH]; simpl; auto.
    destruct r; auto. rewrite !allP_app, Hx, Hs, IH. reflexivity.
  Qed.

  Lemma allP_replace s old new : allP s = true -> allP new = true -> allP (py_replace s old new) = true.
  Proof.
    intros Hs Hn. unfold py_replace. destruct old; [|apply allP_join, allP_split; assumption].
    apply allP_app_true; [exact Hn|]. induction s as [|c r IH]; [reflexivity|].
    simpl in Hs. apply andb_true_iff in Hs. destruct Hs as [Hc Hr].
    cbn [flat_map]. apply (allP_app_true (c :: new)); [simpl; rewrite Hc; exact Hn|exact (IH Hr)].
  Qed.

  Lemma allP_map f s : (forall c, P c = true -> P (f c) = true) -> allP s = true -> allP (map f s) = true.
  Proof.
    intros Hf. induction s as [|c r IH]; simpl; auto. intro H. apply andb_true_iff in H. destruct H as [Hc Hr].
    rewrite (Hf _ Hc). simpl. auto.
  Qed.

  (* a character function that is the identity on texts that satisfy P *)
  Lemma allP_flat_map_id (f : N -> str) s : (forall c, P c = true -> f c = [c]) -> allP s = true -> flat_map f s = s.
  Proof.
    intro Hf. induction s as [|c r IH]; simpl; auto. intro H. apply andb_true_iff in H. destruct H as [Hc Hr].
    rewrite (Hf c Hc), (IH Hr). reflexivity.
  Qed.

  Lemma allP_span f : forall n s, allP s = true -> allP (snd (span_upto f n s)) = true.
  Proof.
    induction n as [|n IH]; intros s H; simpl; auto. destruct s as [|c r]; auto.
    destruct (f c); [|exact H]. simpl in H. apply andb_true_iff in H. destruct H as [_ Hr].
    specialize (IH r Hr). destruct (span_upto f n r). exact IH.
  Qed.

  Lemma allP_placeholder s nm rest : allP s = true -> placeholder s = Some (nm, rest) -> allP rest = true.
  Proof.
    intros H E. unfold placeholder in E. pose proof (allP_span is_word (length s) s H) as Hs.
    destruct (span_upto is_word (length s) s) as [a b]. simpl in Hs.
    destruct a; [discriminate|]. destruct b as [|c1 [|c2 b']]; try discriminate.
    destruct ((c1 =? 41) && (c2 =? 115)); [|discriminate]. inversion E; subst.
    simpl in Hs. apply andb_true_iff in Hs. destruct Hs as [_ Hs]. apply andb_true_iff in Hs. tauto.
  Qed.

  Lemma allP_fmt_go r : (forall k, allP (r k) = true) -> forall fuel prev s, allP s = true -> allP (fmt_go r fuel prev s) = true.
  Proof.
    intro Hr. induction fuel as [|f IH]; intros prev s H; [exact H|].
    destruct s as [|c s']; [reflexivity|]. pose proof H as Hcs. simpl in H. apply andb_true_iff in H. destruct H as [Hc Hs'].
    cbn [fmt_go]. destruct ((c =? 37) && negb prev).
    - destruct s' as [|c1 r1]; [exact Hcs|].
      assert (Hkeep : allP (c :: fmt_go r f true (c1 :: r1)) = true) by (simpl; rewrite Hc; apply IH; exact Hs').
      destruct (c1 =? 40); [|exact Hkeep].
      destruct (placeholder r1) as [[nm rest]|] eqn:E; [|exact Hkeep].
      apply allP_app_true; [apply Hr|]. apply IH. simpl in Hs'. apply andb_true_iff in Hs'. destruct Hs' as [_ Hr1].
      eapply allP_placeholder; [exact Hr1|exact E].
    - simpl. rewrite Hc. apply IH. exact Hs'.
  Qed.

  Lemma allP_format r t : (forall k, allP (r k) = true) -> allP t = true -> allP (format_message r t) = true.
  Proof. intros. unfold format_message. apply allP_fmt_go; assumption. Qed.

  (* P holds of the digits and of everything from A to z: such a P survives case change and holds of printed numbers *)
  Definition alnum_ok : Prop := forall c, 48 <= c <= 57 \/ 65 <= c <= 122 -> P c = true.

  Lemma alnum_up c : alnum_ok -> P c = true -> P (up c) = true.
  Proof. intros Ha Hc. destruct (up_cases c) as [->|[Hr ->]]; [exact Hc|apply Ha; lia]. Qed.
  Lemma alnum_low c : alnum_ok -> P c = true -> P (low c) = true.
  Proof. intros Ha Hc. destruct (low_cases c) as [->|[Hr ->]]; [exact Hc|apply Ha; lia]. Qed.

  Lemma allP_upcase s : alnum_ok -> allP s = true -> allP (map up s) = true.
  Proof. intro Ha. apply allP_map. intros c Hc. apply alnum_up; assumption. Qed.
  Lemma allP_downcase s : alnum_ok -> allP s = true -> allP (map low s) = true.
  Proof. intro Ha. apply allP_map. intros c Hc. apply alnum_low; assumption. Qed.

  Lemma allP_capitalize s : alnum_ok -> allP s = true -> allP (capitalize_s s) = true.
  Proof.
    intro Ha. destruct s as [|c r]; simpl; auto. intro H. apply andb_true_iff in H. destruct H as [Hc Hr].
    rewrite (alnum_up c Ha Hc). apply allP_downcase; assumption.
  Qed.

  Lemma allP_digits : alnum_ok -> forall fuel n acc, allP acc = true -> allP (N_digits fuel n acc) = true.
  Proof.
    intro Ha. induction fuel as [|f IH]; intros n acc Hacc; [exact Hacc|]. cbn [N_digits]. cbv zeta.
    assert (Hc : allP (48 + n mod 10 :: acc) = true).
    { unfold allP in *. cbn [forallb]. rewrite Hacc, Ha; [reflexivity|]. left. assert (Hm : n mod 10 < 10) by (apply N.mod_lt; discriminate).
      revert Hm. generalize (n mod 10). intros m Hm. lia. }
    destruct (n / 10 =? 0); [exact Hc|apply IH, Hc].
  Qed.

  Lemma allP_nat_to_str : alnum_ok -> forall n, allP (nat_to_str n) = true.
  Proof. intros Ha n. unfold nat_to_str. apply allP_digits; auto. Qed.

  Lemma allP_closed : alnum_ok -> P 32 = true -> forall f, filter_closed (fun t => allP t = true) f.
  Proof.
    intros Ha Hsp f. destruct f; simpl; auto; intros.
    - apply allP_upcase; assumption.
    - apply allP_downcase; assumption.
    - apply allP_capitalize; assumption.
    - apply allP_strip; assumption.
    - apply allP_lstrip; assumption.
    - apply allP_rstrip; assumption.
    - apply allP_replace; assumption.
    - apply allP_replace; assumption.
    - apply allP_slice; assumption.
    - apply allP_split; assumption.
    - apply allP_format; assumption.
    - destruct k; auto. intros t Ht. apply allP_map; [|exact Ht]. intros c Hc. destruct (c =? 43); assumption.
  Qed.
End AllP.

(* first clause: no raw < > quote *)
Definition not_raw (c : N) : bool := negb (is_raw c).

Lemma no_raw_allP s : no_raw s = allP not_raw s.
Proof. reflexivity. Qed.

Lemma not_raw_alnum : alnum_ok not_raw.
Proof. intros c H. unfold not_raw, is_raw. rewrite !eqb_of_ne by lia. reflexivity. Qed.

Definition any_filter (f : filter) : bool := true.

Lemma no_raw_closed : forall f, filter_closed (fun t => no_raw t = true) f.
Proof. exact (allP_closed not_raw not_raw_alnum eq_refl). Qed.

(* plain data never constrains the theorem: a state whose render data are plain strings and arrays of plain strings *)
Definition plain_value (v : value) : bool :=
  match v with VS s => negb (sf s) | VL l => forallb (fun s => negb (sf s)) l | _ => true end.

Lemma plain_data_inv Q data : forallb (fun kv => plain_value (snd kv)) data = true ->
  state_inv Q {| st_scopes := []; st_locals := []; st_globals := data; st_cycle := 0 |}.
Proof.
  intro H. split; [constructor|split; [constructor|]]. apply Forall_forall. intros [k v] Hin.
  rewrite forallb_forall in H. specialize (H _ Hin). cbn [snd] in *.
  assert (Hgood : forall s, negb (sf s) = true -> good Q s) by (intros s Hs E; rewrite E in Hs; discriminate Hs).
  destruct v; cbn [plain_value] in H; try exact I; [apply Hgood, H|]. apply Forall_forall. intros s Hs. rewrite forallb_forall in H. apply Hgood, H, Hs.
Qed.

(* second clause: every ampersand starts an entity *)
Lemma amp_scan_seen_irrelevant s : forall a b, amp_scan false a s = amp_scan false b s.
Proof. destruct s; reflexivity. Qed.

(* a text that scans to the end closes every reference it opens; what follows is scanned from the idle state *)
Lemma amp_scan_app b : forall a r sn, amp_scan r sn a = true -> amp_scan r sn (a ++ b) = amp_scan false false b.
Proof.
  induction a as [|c a IH]; intros r sn H; simpl in H |- *.
  - destruct r; [discriminate|]. apply amp_scan_seen_irrelevant.
  - destruct r.
    + destruct (c =? 59).
      * apply andb_true_iff in H. destruct H as [-> H]. simpl. apply IH. exact H.
      * destruct (is_ref_char c); [apply IH; exact H|discriminate].
    + destruct (c =? 38); apply IH; exact H.
Qed.

Lemma amp_ok_app a b : amp_ok a = true -> amp_ok b = true -> amp_ok (a ++ b) = true.
Proof. unfold amp_ok. intros Ha Hb. rewrite (amp_scan_app b a false false Ha). exact Hb. Qed.

(* a function on characters that keeps the classes the scanner looks at keeps the verdict *)
Lemma amp_scan_map f : (forall c, (f c =? 59) = (c =? 59) /\ (f c =? 38) = (c =? 38) /\ is_ref_char (f c) = is_ref_char c) ->
  forall s r sn, amp_scan r sn (map f s) = amp_scan r sn s.
Proof.
  intro Hf. induction s as [|c s IH]; intros r sn; simpl; auto.
  destruct (Hf c) as (E1 & E2 & E3). rewrite E1, E2, E3.
  destruct r; [destruct (c =? 59); [rewrite IH; reflexivity|destruct (is_ref_char c); auto]|destruct (c =? 38); auto].
Qed.

Lemma is_ref_char_letter c : 65 <= c <= 90 \/ 97 <= c <= 122 -> is_ref_char c = true.
Proof.
  intros [[A B]|[A B]]; apply N.leb_le in A, B; unfold is_ref_char; rewrite A, B; cbn [andb]; rewrite orb_true_r; reflexivity.
Qed.

(* the scanner does not tell one letter from another *)
Lemma letters_same_class a b : 65 <= a <= 90 \/ 97 <= a <= 122 -> 65 <= b <= 90 \/ 97 <= b <= 122 ->
  (a =? 59) = (b =? 59) /\ (a =? 38) = (b =? 38) /\ is_ref_char a = is_ref_char b.
Proof.
  intros Ha Hb. rewrite !eqb_of_ne by lia.
  rewrite (is_ref_char_letter a Ha), (is_ref_char_letter b Hb). auto.
Qed.

Lemma up_keeps_classes c : (up c =? 59) = (c =? 59) /\ (up c =? 38) = (c =? 38) /\ is_ref_char (up c) = is_ref_char c.
Proof. destruct (up_cases c) as [->|[Hr ->]]; [auto|apply letters_same_class; lia]. Qed.
Lemma low_keeps_classes c : (low c =? 59) = (c =? 59) /\ (low c =? 38) = (c =? 38) /\ is_ref_char (low c) = is_ref_char c.
Proof. destruct (low_cases c) as [->|[Hr ->]]; [auto|apply letters_same_class; lia]. Qed.

Lemma amp_scan_plus_to_space t r sn : amp_scan r sn (plus_to_space t) = amp_scan r sn t.
Proof.
  apply amp_scan_map. intro c. destruct (c =? 43) eqn:E; [|auto]. apply N.eqb_eq in E. subst c. repeat split; reflexivity.
Qed.

(* a text without ampersand passes *)
Lemma amp_ok_no_amp s : allP (fun c => negb (c =? 38)) s = true -> amp_ok s = true.
Proof.
  unfold amp_ok. induction s as [|c r IH]; simpl; auto. intro H. apply andb_true_iff in H. destruct H as [Hc Hr].
  destruct (c =? 38); [discriminate|]. apply IH. exact Hr.
Qed.

Definition wf_text (t : str) : Prop := no_raw t = true /\ amp_ok t = true.
Definition wf_lit (t : str) : bool := no_raw t && amp_ok t.

Lemma wf_text_app a b : wf_text a -> wf_text b -> wf_text (a ++ b).
Proof. intros [A1 A2] [B1 B2]. split; [exact (allP_app_true not_raw a b A1 B1)|apply amp_ok_app; assumption]. Qed.

Lemma escape_char_wf c : wf_text (escape_char c).
Proof.
  unfold escape_char.
  destruct (c =? 38) eqn:E1; [split; reflexivity|]. destruct (c =? 60) eqn:E2; [split; reflexivity|].
  destruct (c =? 62) eqn:E3; [split; reflexivity|]. destruct (c =? 39) eqn:E4; [split; reflexivity|].
  destruct (c =? 34) eqn:E5; [split; reflexivity|].
  unfold wf_text, no_raw, amp_ok, is_raw. simpl. rewrite E1, E2, E3, E4, E5. split; reflexivity.
Qed.

Lemma escape_wf s : wf_text (escape s).
Proof.
  induction s as [|c r IH]; [split; reflexivity|].
  change (wf_text (escape_char c ++ escape r)). apply wf_text_app; [apply escape_char_wf|exact IH].
Qed.

Lemma nat_to_str_wf n : wf_text (nat_to_str n).
Proof.
  split; [apply allP_nat_to_str, not_raw_alnum|]. apply amp_ok_no_amp, allP_nat_to_str.
  intros c H. rewrite eqb_of_ne by lia. reflexivity.
Qed.

(* the filters that neither cut nor edit a string *)
Definition keeps_entities (f : filter) : bool :=
  match f with
  | FEscape | FEscapeOnce | FUpcase | FDowncase | FAppend _ | FPrepend _ | FJoin _ | FFirst | FLast | FDefault _ | FSize | FOpaque _ _ => true
  | _ => false
  end.

Lemma wf_text_closed : forall f, keeps_entities f = true -> filter_closed wf_text f.
Proof.
  intros f Hf. destruct f; try discriminate Hf; simpl; auto.
  - intros t [A B]. split; [exact (no_raw_closed FUpcase t A)|]. unfold amp_ok. rewrite amp_scan_map; [exact B|exact up_keeps_classes].
  - intros t [A B]. split; [exact (no_raw_closed FDowncase t A)|]. unfold amp_ok. rewrite amp_scan_map; [exact B|exact low_keeps_classes].
  - destruct k; auto. intros t [A B]. split; [exact (no_raw_closed (FOpaque OUrlDecode result) t A)|].
    unfold amp_ok. rewrite amp_scan_plus_to_space. exact B.
Qed.

(* the data and the variable of the witnesses against the second clause under a cutting filter (DESIGN section 7 row 19) *)
Definition x_data : list (str * value) := [([120], VS (plain [60; 97; 38; 98; 62]))].     (* x = <a&b> *)
Definition out_of (p : list stmt) : option str :=
  run_escape {| e_ae := true; e_data := x_data; e_prog := p |}.
Definition xvar : expr := EAtom (AVar [120]).

(* third clause: without special characters autoescape changes nothing *)
Definition clean_c (c : N) : bool := negb (is_special c).
Definition clean (t : str) : bool := allP clean_c t.

Lemma clean_c_cases c : clean_c c = true -> (c =? 38) = false /\ (c =? 60) = false /\ (c =? 62) = false /\ (c =? 39) = false /\ (c =? 34) = false.
Proof.
  unfold clean_c, is_special, is_raw. intro H. apply negb_true_iff in H. repeat (apply orb_false_iff in H; destruct H as [H ?]). auto.
Qed.

Lemma clean_alnum : alnum_ok clean_c.
Proof. intros c H. unfold clean_c, is_special, is_raw. rewrite !eqb_of_ne by lia. reflexivity. Qed.

Lemma clean_closed : forall f, filter_closed (fun t => clean t = true) f.
Proof. exact (allP_closed clean_c clean_alnum eq_refl). Qed.

Lemma escape_clean t : clean t = true -> escape t = t.
Proof.
  apply allP_flat_map_id. intros c Hc. destruct (clean_c_cases c Hc) as (A & B & C & D & E).
  unfold escape_char. rewrite A, B, C, D, E. reflexivity.
Qed.
Lemma html_escape_clean t : clean t = true -> html_escape t = t.
Proof.
  apply allP_flat_map_id. intros c Hc. destruct (clean_c_cases c Hc) as (A & B & C & D & E).
  unfold html_escape_char. rewrite A, B, C, D, E. reflexivity.
Qed.
Lemma unescape_go_clean : forall fuel t, clean t = true -> unescape_go fuel t = t.
Proof.
  induction fuel as [|f IH]; intros t H; [reflexivity|]. destruct t as [|c r]; [reflexivity|].
  cbn [clean allP forallb] in H. apply andb_true_iff in H. destruct H as [Hc Hr]. destruct (clean_c_cases c Hc) as (A & _).
  cbn [unescape_go]. rewrite A. f_equal. apply IH. exact Hr.
Qed.
Lemma unescape_clean t : clean t = true -> unescape t = t.
Proof. apply unescape_go_clean. Qed.

Lemma clean_esc_arg s : clean (tx s) = true -> esc_arg s = tx s.
Proof. intro H. unfold esc_arg. destruct (sf s); auto. apply escape_clean. exact H. Qed.

(* the filters of the identity theorem: everything but split (no arrays: str(list) holds quotes), the three text functions
   that are modelled by their flag only, and the translation filters (the translate TAG is covered) *)
Definition plain_filters (f : filter) : bool := match f with FSplit _ | FOpaque _ _ | FTrans _ _ _ _ => false | _ => true end.

(* two strings with the same clean text (the Markup flags may differ) ... *)
Inductive Rs : sstr -> sstr -> Prop :=
| Rs_same t f f' : clean t = true -> Rs {| tx := t; sf := f |} {| tx := t; sf := f' |}.

Lemma Rs_of_tx s s' : tx s = tx s' -> clean (tx s) = true -> Rs s s'.
Proof. destruct s, s'. simpl. intros <-. apply Rs_same. Qed.

(* ... and two values *)
Inductive Rv : value -> value -> Prop :=
| RS s s' : tx s = tx s' -> clean (tx s) = true -> Rv (VS s) (VS s')
| RNil : Rv VNil VNil
| RNone : Rv VNone VNone
| RInt n : Rv (VInt n) (VInt n).

Lemma Rv_VS s s' : Rs s s' -> Rv (VS s) (VS s').
Proof. intros [t f f' Ht]. apply RS; [reflexivity|exact Ht]. Qed.

Lemma Rv_as_string v v' : Rv v v' -> Rs (as_string v) (as_string v').
Proof.
  destruct 1; simpl; [apply Rs_of_tx; assumption|apply Rs_same; reflexivity..|apply Rs_same, allP_nat_to_str, clean_alnum].
Qed.
Lemma Rv_py_str_of v v' : Rv v v' -> Rs (py_str_of v) (py_str_of v').
Proof.
  destruct 1; simpl; [apply Rs_of_tx; assumption|apply Rs_same; reflexivity..|apply Rs_same, allP_nat_to_str, clean_alnum].
Qed.

(* on clean operands the Markup algebra is the string algebra *)
Lemma tx_madd a b : clean (tx a) = true -> clean (tx b) = true -> tx (madd a b) = tx a ++ tx b.
Proof.
  intros Ha Hb. unfold madd. destruct (sf a); simpl; [rewrite clean_esc_arg; auto|].
  destruct (sf b); simpl; auto. rewrite escape_clean; auto.
Qed.
Lemma tx_mreplace s o n : clean (tx n) = true -> tx (mreplace s o n) = py_replace (tx s) (tx o) (tx n).
Proof. intro Hn. unfold mreplace. destruct (sf s); simpl; auto. rewrite clean_esc_arg; auto. Qed.
Lemma tx_mjoin sep items : Forall (fun i => clean (tx i) = true) items -> tx (mjoin sep items) = join_str (tx sep) (map tx items).
Proof.
  intro H. unfold mjoin. destruct (sf sep); simpl; auto. f_equal.
  induction H; simpl; auto. rewrite clean_esc_arg by assumption. f_equal. assumption.
Qed.

Lemma mmap_rel f s s' : (forall t, clean t = true -> clean (f t) = true) -> Rs s s' -> Rs (mmap f s) (mmap f s').
Proof. intros Hf [t fl fl' Ht]. apply Rs_same, Hf, Ht. Qed.

Lemma madd_rel a a' b b' : Rs a a' -> Rs b b' -> Rs (madd a b) (madd a' b').
Proof.
  intros [ta fa fa' Ha] [tb fb fb' Hb]. apply Rs_of_tx; rewrite !tx_madd by assumption; [reflexivity|].
  apply allP_app_true; assumption.
Qed.

Lemma mreplace_rel s s' o o' n n' : Rs s s' -> Rs o o' -> Rs n n' -> Rs (mreplace s o n) (mreplace s' o' n').
Proof.
  intros [ts fs fs' Hs] [to fo fo' Ho] [tn fn fn' Hn]. apply Rs_of_tx; rewrite !tx_mreplace by assumption; [reflexivity|].
  apply allP_replace; assumption.
Qed.

Lemma mjoin_rel sep sep' items items' : Rs sep sep' -> Forall2 Rs items items' -> Rs (mjoin sep items) (mjoin sep' items').
Proof.
  intros [t f f' Ht] Hi.
  assert (H : map tx items = map tx items' /\ Forall (fun i => clean (tx i) = true) items /\ Forall (fun i => clean (tx i) = true) items').
  { induction Hi as [|i i' r r' [ti fi fi' Hti] _ (E & C & C')]; [auto|]. simpl. rewrite E. auto. }
  destruct H as (E & C & C'). apply Rs_of_tx; rewrite !tx_mjoin by assumption; [rewrite E; reflexivity|].
  apply allP_join; [exact Ht|]. apply Forall_map. exact C.
Qed.

Section Identity.
  Variables look look' : str -> value.
  Hypothesis look_rel : forall x, Rv (look x) (look' x).

  Lemma eval_atom_rel a : atom_ok clean a = true -> Rv (eval_atom true look a) (eval_atom false look' a).
  Proof. destruct a; simpl; intro H; [apply Rv_VS, Rs_same, H|apply look_rel]. Qed.

  Lemma atom_rel a : atom_ok clean a = true -> Rs (as_string (eval_atom true look a)) (as_string (eval_atom false look' a)).
  Proof. intro H. apply Rv_as_string, eval_atom_rel, H. Qed.

  Lemma apply_filter_rel f v v' :
    filter_ok clean plain_filters f = true -> Rv v v' ->
    Rv (apply_filter true look f v) (apply_filter false look' f v').
  Proof.
    intros Hok Hv. unfold filter_ok in Hok. apply andb_true_iff in Hok. destruct Hok as [Hpf Hargs].
    pose proof (clean_closed f) as Hcl. pose proof (Rv_as_string _ _ Hv) as Hs.
    destruct f; try discriminate Hpf; simpl in Hcl |- *.
    - (* escape *) destruct Hs as [t fl fl' Ht]. cbn [tx]. rewrite escape_clean, html_escape_clean by assumption. apply Rv_VS, Rs_same, Ht.
    - (* escape_once *) destruct Hs as [t fl fl' Ht]. cbn [tx]. rewrite !unescape_clean, html_escape_clean by assumption. apply Rv_VS, Rs_same, Ht.
    - apply Rv_VS, mmap_rel; assumption.
    - apply Rv_VS, mmap_rel; assumption.
    - apply Rv_VS, mmap_rel; assumption.
    - apply Rv_VS, mmap_rel; assumption.
    - apply Rv_VS, mmap_rel; assumption.
    - apply Rv_VS, mmap_rel; assumption.
    - (* append *) apply Rv_VS, madd_rel; [exact Hs|apply atom_rel, Hargs].
    - (* prepend *) apply Rv_VS, madd_rel; [apply atom_rel, Hargs|exact Hs].
    - (* replace *) apply andb_true_iff in Hargs. destruct Hargs as [Ho Hn].
      apply Rv_VS, mreplace_rel; [exact Hs|apply atom_rel, Ho|apply atom_rel, Hn].
    - (* remove *) apply Rv_VS, mreplace_rel; [exact Hs|apply atom_rel, Hargs|apply Rs_same; reflexivity].
    - (* slice *) pose proof (Rv_py_str_of _ _ Hv) as Hp. destruct Hv; apply Rv_VS, mmap_rel; assumption.
    - (* join *)
      apply Rv_VS, mjoin_rel.
      + assert (Hsep : Rs (match sep with None => {| tx := [32]; sf := true |} | Some a => as_string (eval_atom true look a) end)
                          (match sep with None => {| tx := [32]; sf := false |} | Some a => as_string (eval_atom false look' a) end)).
        { destruct sep as [a|]; [apply atom_rel, Hargs|apply Rs_same; reflexivity]. }
        destruct Hsep as [t fl fl' Ht]. cbn [tx]. destruct (str_eqb t [32]) eqn:E; [|apply Rs_same, Ht].
        apply str_eqb_eq in E. subst t. apply Rs_same, Ht.
      + pose proof (Rv_py_str_of _ _ Hv) as Hp. destruct Hv; try (apply Forall2_cons; [exact Hp|apply Forall2_nil]). apply Forall2_nil.
    - (* first *) destruct Hv; constructor.
    - (* last *) destruct Hv; constructor.
    - (* default *) pose proof (eval_atom_rel d Hargs) as Hd. destruct Hv as [s s' E C| | |]; try assumption; [|constructor].
      pose proof (RS s s' E C) as Hv. rewrite <- E. destruct (tx s); assumption.
    - (* size *) destruct Hv as [s s' E C| | |]; simpl; try constructor. rewrite E. constructor.
  Qed.

  Lemma eval_expr_rel e : expr_ok clean plain_filters e = true -> Rv (eval_expr true look e) (eval_expr false look' e).
  Proof.
    induction e as [a|e IH f]; simpl; intro H; [apply eval_atom_rel; assumption|].
    apply andb_true_iff in H. destruct H as [H _]. apply andb_true_iff in H. destruct H as [He Hf]. apply apply_filter_rel; auto.
  Qed.
End Identity.

Lemma to_liquid_string_rel v v' : Rv v v' -> to_liquid_string true v = to_liquid_string false v' /\ clean (to_liquid_string true v) = true.
Proof.
  destruct 1; simpl; try (split; reflexivity).
  - unfold out_str. rewrite clean_esc_arg by assumption. split; assumption.
  - split; [reflexivity|apply allP_nat_to_str, clean_alnum].
Qed.

Definition Rscope (a b : list (str * value)) : Prop := Forall2 (fun p q => fst p = fst q /\ Rv (snd p) (snd q)) a b.
Definition Rstate (s s' : state) : Prop :=
  Forall2 Rscope (st_scopes s) (st_scopes s') /\ Rscope (st_locals s) (st_locals s') /\ Rscope (st_globals s) (st_globals s')
  /\ st_cycle s = st_cycle s'.

(* both lookups miss, or they hit related values *)
Inductive Ropt : option value -> option value -> Prop :=
| Ropt_some v v' : Rv v v' -> Ropt (Some v) (Some v')
| Ropt_none : Ropt None None.

Lemma alookup_rel x a b : Rscope a b -> Ropt (alookup x a) (alookup x b).
Proof.
  induction 1 as [|[k v] [k' v'] ra rb [Hk Hv] Hr IH]; simpl; [constructor|]. simpl in Hk. subst k'.
  destruct (str_eqb x k); [constructor; exact Hv|exact IH].
Qed.

Lemma first_hit_rel x a b : Forall2 Rscope a b -> Ropt (first_hit x a) (first_hit x b).
Proof.
  induction 1 as [|sa sb ra rb Hs Hr IH]; simpl; [constructor|].
  destruct (alookup_rel x _ _ Hs); [constructor; assumption|exact IH].
Qed.

Lemma lookup_rel s s' x : Rstate s s' -> Rv (lookup s x) (lookup s' x).
Proof.
  intros (Hs & Hl & Hg & _). unfold lookup.
  destruct (first_hit_rel x (st_scopes s ++ [st_locals s; st_globals s]) (st_scopes s' ++ [st_locals s'; st_globals s'])); [|assumption|constructor].
  apply Forall2_app; [exact Hs|]. constructor; [exact Hl|]. constructor; [exact Hg|constructor].
Qed.

Lemma eval_rel s s' e : Rstate s s' -> expr_ok clean plain_filters e = true -> Rv (eval true s e) (eval false s' e).
Proof. intros Hst He. apply eval_expr_rel; [intro x; apply lookup_rel, Hst|exact He]. Qed.
Lemma evala_rel s s' a : Rstate s s' -> atom_ok clean a = true -> Rv (evala true s a) (evala false s' a).
Proof. intros Hst Ha. apply eval_atom_rel; [intro x; apply lookup_rel, Hst|exact Ha]. Qed.

Lemma set_local_rel s s' x v v' : Rstate s s' -> Rv v v' -> Rstate (set_local s x v) (set_local s' x v').
Proof. intros (A & B & C & D) Hv. repeat split; simpl; auto. constructor; auto. Qed.
Lemma push_scope_rel s s' sc sc' : Rstate s s' -> Rscope sc sc' -> Rstate (push_scope s sc) (push_scope s' sc').
Proof. intros (A & B & C & D) Hsc. repeat split; simpl; auto. Qed.
Lemma pop_scope_rel s s' : Rstate s s' -> Rstate (pop_scope s) (pop_scope s').
Proof. intros (A & B & C & D). repeat split; simpl; auto. destruct A; simpl; auto. Qed.

Lemma bind_args_rel s s' binds : Rstate s s' -> forallb (fun b => atom_ok clean (snd b)) binds = true ->
  Rscope (bind_args true s binds) (bind_args false s' binds).
Proof.
  intros Hst H. unfold bind_args. induction binds as [|[k a] r IH]; cbn [map forallb] in H |- *; constructor.
  - apply andb_true_iff in H. split; [reflexivity|apply evala_rel; [exact Hst|apply H]].
  - apply IH. apply andb_true_iff in H. apply H.
Qed.

Lemma truthy_rel v v' : Rv v v' -> truthy v = truthy v'.
Proof. destruct 1; reflexivity. Qed.
Lemma text_eqb_rel a a' b b' : Rv a a' -> Rv b b' -> value_text_eqb a b = value_text_eqb a' b'.
Proof. destruct 1; destruct 1; simpl; auto; congruence. Qed.
Lemma cond_rel s s' c : Rstate s s' -> cond_ok clean c = true ->
  match c with CTruthy a => truthy (evala true s a) | CEq a b => value_text_eqb (evala true s a) (evala true s b) end
  = match c with CTruthy a => truthy (evala false s' a) | CEq a b => value_text_eqb (evala false s' a) (evala false s' b) end.
Proof.
  intros Hst Hc. destruct c; cbn [cond_ok] in Hc.
  - apply truthy_rel, evala_rel; assumption.
  - apply andb_true_iff in Hc. destruct Hc. apply text_eqb_rel; apply evala_rel; assumption.
Qed.
Lemma tag_count_rel v v' : Rv v v' -> tag_count v = tag_count v'.
Proof. destruct 1 as [s s' E _| | |]; simpl; [rewrite E|..]; reflexivity. Qed.

Lemma loop_items_rel v v' : Rv v v' -> Forall2 Rv (loop_items v) (loop_items v').
Proof.
  destruct 1 as [s s' E C| | |]; simpl; try constructor.
  pose proof (RS s s' E C) as Hr. rewrite <- E. destruct (tx s); constructor; [exact Hr|constructor].
Qed.

(* the message of a translate tag *)
Lemma segments_rel s s' m :
  Rstate s s' -> forallb (fun g => match g with MText t => clean t | MVar _ => true end) m = true ->
  let out := concat (map (fun g => match g with MText t => t | MVar x => to_liquid_string true (lookup s x) end) m) in
  out = concat (map (fun g => match g with MText t => t | MVar x => to_liquid_string false (lookup s' x) end) m) /\ clean out = true.
Proof.
  intro Hst. induction m as [|g r IH]; cbn [forallb map concat]; intro Hm; [split; reflexivity|].
  apply andb_true_iff in Hm. destruct Hm as [Hg Hr]. destruct (IH Hr) as [E C]. cbv zeta. rewrite <- E.
  destruct g as [t|x].
  - split; [reflexivity|apply allP_app_true; assumption].
  - destruct (to_liquid_string_rel _ _ (lookup_rel _ _ x Hst)) as [E2 C2]. rewrite <- E2.
    split; [reflexivity|apply allP_app_true; assumption].
Qed.

(* two runs agree: the same clean output and related states, or both out of fuel *)
Definition Rres (r r' : res (str * state)) : Prop :=
  match r, r' with
  | Ok (o, s), Ok (o', s') => o = o' /\ clean o = true /\ Rstate s s'
  | OutOfFuel, OutOfFuel => True
  | _, _ => False
  end.

Lemma Rres_ok o o' s s' : o = o' /\ clean o = true -> Rstate s s' -> Rres (Ok (o, s)) (Ok (o', s')).
Proof. intros [E C] Hst. exact (conj E (conj C Hst)). Qed.

Lemma Rres_bind r r' k k' :
  Rres r r' -> (forall o s s', clean o = true -> Rstate s s' -> Rres (k (o, s)) (k' (o, s'))) -> Rres (bind r k) (bind r' k').
Proof.
  intros Hr Hk. destruct r as [[o s]|e|], r' as [[o' s']|e'|]; try contradiction; [|exact I].
  destruct Hr as (<- & C & Hst). apply Hk; assumption.
Qed.

Lemma Rres_seq r r' (k k' : state -> res (str * state)) :
  Rres r r' -> (forall s s', Rstate s s' -> Rres (k s) (k' s')) ->
  Rres (do x <- r; let '(o1, s1) := x in do y <- k s1; let '(o2, s2) := y in Ok (o1 ++ o2, s2))
       (do x <- r'; let '(o1, s1) := x in do y <- k' s1; let '(o2, s2) := y in Ok (o1 ++ o2, s2)).
Proof.
  intros Hr Hk. apply Rres_bind; [exact Hr|]. intros o1 s1 s1' C1 H1.
  apply Rres_bind; [apply Hk, H1|]. intros o2 s2 s2' C2 H2.
  apply Rres_ok; [split; [reflexivity|apply allP_app_true; assumption]|exact H2].
Qed.

Lemma for_loop_rel (run run' : state -> res (str * state)) x :
  (forall s s', Rstate s s' -> Rres (run s) (run' s')) ->
  forall items items' s s', Forall2 Rv items items' -> Rstate s s' -> Rres (for_loop run x items s) (for_loop run' x items' s').
Proof.
  intros Hrun items items' s s' Hit. revert s s'. induction Hit as [|it it' more more' Hi Hm IH]; intros s s' Hst; cbn [for_loop].
  - apply Rres_ok; [split; reflexivity|exact Hst].
  - apply Rres_seq.
    + apply Hrun, push_scope_rel; [exact Hst|]. constructor; [split; [reflexivity|exact Hi]|constructor].
    + intros s1 s1' H1. apply IH, pop_scope_rel, H1.
Qed.

(* the two interpreters run in lock step on every template without special characters in its literals *)
Theorem exec_rel : forall fuel s s' p,
  forallb (stmt_ok clean plain_filters) p = true -> Rstate s s' ->
  Rres (exec true fuel s p) (exec false fuel s' p).
Proof.
  induction fuel as [|f IH]; intros s s' p Hp Hst; [exact I|].
  destruct p as [|st rest]; [apply Rres_ok; [split; reflexivity|exact Hst]|].
  cbn [forallb] in Hp. apply andb_true_iff in Hp. destruct Hp as [Hs Hrest].
  cbn [exec]. apply Rres_seq; [|intros s1 s1' H1; apply IH; assumption].
  destruct st; cbn [stmt_ok] in Hs.
  - (* translate tag *)
    apply andb_true_iff in Hs. destruct Hs as [Hs Hpl]. apply andb_true_iff in Hs. destruct Hs as [Hb Hsing].
    pose proof (bind_args_rel _ _ binds Hst Hb) as Hns. cbv zeta.
    assert (En : match alookup s_count (bind_args true s binds) with Some v => tag_count v | None => 1%nat end
               = match alookup s_count (bind_args false s' binds) with Some v => tag_count v | None => 1%nat end).
    { destruct (alookup_rel s_count _ _ Hns); [apply tag_count_rel; assumption|reflexivity]. }
    rewrite <- En. apply Rres_ok; [|exact Hst].
    apply segments_rel; [apply push_scope_rel; assumption|].
    destruct plural as [p0|]; [|exact Hsing]. destruct (Nat.eqb _ 1); assumption.
  - apply Rres_ok; [split; [reflexivity|exact Hs]|exact Hst].
  - apply Rres_ok; [apply to_liquid_string_rel, eval_rel; assumption|exact Hst].
  - apply Rres_ok; [split; reflexivity|apply set_local_rel; [exact Hst|apply eval_rel; assumption]].
  - (* capture *)
    apply Rres_bind; [apply IH; assumption|]. intros o s1 s1' Co H1.
    apply Rres_ok; [split; reflexivity|apply set_local_rel; [exact H1|apply Rv_VS, Rs_same, Co]].
  - (* if *)
    apply andb_true_iff in Hs. destruct Hs as [Hs Hels]. apply andb_true_iff in Hs. destruct Hs as [Hc Hbody]. cbv zeta.
    rewrite (cond_rel s s' c Hst Hc). apply IH; [|exact Hst]. destruct (match c with CTruthy _ => _ | _ => _ end); assumption.
  - (* for *)
    apply andb_true_iff in Hs. destruct Hs as [He Hbody].
    apply for_loop_rel; [intros s0 s0' H0; apply IH; assumption|apply loop_items_rel, eval_rel; assumption|exact Hst].
  - (* cycle *)
    cbv zeta. pose proof Hst as (A & B & C & D). rewrite <- D. apply Rres_ok; [|repeat split; simpl; auto].
    apply to_liquid_string_rel. destruct (nth_error args _) as [a|] eqn:En; [|constructor].
    apply evala_rel; [exact Hst|]. rewrite forallb_forall in Hs. exact (Hs a (nth_error_In _ _ En)).
  - (* include *)
    apply andb_true_iff in Hs. destruct Hs as [Hb Hbody].
    apply Rres_bind; [apply IH; [exact Hbody|apply push_scope_rel; [exact Hst|apply bind_args_rel; assumption]]|].
    intros o s1 s1' Co H1. apply Rres_ok; [split; [reflexivity|exact Co]|apply pop_scope_rel, H1].
  - (* render *)
    apply andb_true_iff in Hs. destruct Hs as [Hb Hbody].
    apply Rres_bind; [apply IH; [exact Hbody|]|intros o s1 s1' Co _; apply Rres_ok; [split; [reflexivity|exact Co]|exact Hst]].
    split; [constructor; [apply bind_args_rel; assumption|constructor]|split; [constructor|split; [apply Hst|reflexivity]]].
Qed.

(* the render data of the third clause: strings without special characters, no arrays *)
Definition clean_data (data : list (str * value)) : bool :=
  forallb (fun kv => match snd kv with VS s => clean (tx s) | VNil | VNone | VInt _ => true | VL _ => false end) data.

Lemma Rscope_refl data : clean_data data = true -> Rscope data data.
Proof.
  unfold clean_data. induction data as [|[k v] r IH]; cbn [forallb snd]; intro H; constructor.
  - apply andb_true_iff in H. destruct H as [Hv _]. split; [reflexivity|]. destruct v; try discriminate Hv; constructor; [reflexivity|exact Hv].
  - apply IH. apply andb_true_iff in H. apply H.
Qed.

(* the data of the translation-filter examples *)
Definition look_of (data : list (str * value)) (x : str) : value := match alookup x data with Some v => v | None => VNil end.
Definition d_hostile : list (str * value) :=
  [([120], VS (plain [60; 98; 62])); ([121], VS (plain [60; 105; 62; 39]))].          (* x = <b>   y = <i>' *)
Definition m_hello : str := [72; 105; 32; 37; 40; 97; 41; 115].                       (* Hi %(a)s *)
Definition text_of (v : value) : str := match v with VS s => tx s | _ => [] end.
