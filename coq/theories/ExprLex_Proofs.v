(* ExprLex_Proofs.v — offsets of expression tokens (C20): every token (and the token of the tokenizer's own syntax
   error) starts inside the expression, and its value is the expression text at start + value_offset, where the
   offset is 0 except for strings (after the quote) and bracketed identifiers (after "[", whitespace, and for strings
   the quote); what a string match looks like. *)
From LiquidVerif Require Import Prelude Lex LexSpec Lex_Proofs Lex_C20_Proofs ExprLex.

Lemma m_identindex_voff r vo vl tot : m_identindex r = Some (vo, vl, tot) -> vo = 1 + ws_len r.
Proof.
  unfold m_identindex. destruct (span_len is_digit _); [discriminate|].
  destruct (hd_is c_rbrack _); [|discriminate]. intros [= <- _ _]. reflexivity.
Qed.

Lemma m_identstring_voff r vo vl tot : m_identstring r = Some (vo, vl, tot) -> vo = 2 + ws_len r.
Proof.
  unfold m_identstring. destruct (skipn (ws_len r) r) as [|q x]; [discriminate|].
  destruct (is_quote q); [|discriminate].
  destruct (find_first (qclose_bracket q) x) as [[[j u] n]|]; [|discriminate].
  intros [= <- _ _]. lia.
Qed.

Lemma m_number_kind s k n : m_number s = Some (k, n) -> k = EFloat \/ k = EInteger.
Proof.
  unfold m_number. destruct (span_len is_digit _); [discriminate|].
  destruct (hd_is c_dot _ && negb (hd_is c_dot _)); [intros [= <- _]; auto|].
  destruct (skipn _ _) as [|c ?]; [intros [= <- _]; auto|].
  destruct (is_word c); [discriminate|]. intros [= <- _]. auto.
Qed.

(* the operator table holds comparison and assignment kinds only *)
Lemma op_kind_value_offset v k x : op_kind v = Some k -> value_offset k x = 0.
Proof.
  unfold op_kind.
  destruct (str_eqb v _); [intros [= <-]; reflexivity|]. destruct (str_eqb v _); [intros [= <-]; reflexivity|].
  destruct (str_eqb v _); [intros [= <-]; reflexivity|]. destruct (str_eqb v _); [intros [= <-]; reflexivity|].
  destruct (str_eqb v _); [intros [= <-]; reflexivity|]. destruct (str_eqb v _); [intros [= <-]; reflexivity|].
  destruct (str_eqb v _); [intros [= <-]; reflexivity|]. destruct (str_eqb v _); [intros [= <-]; reflexivity|].
  discriminate.
Qed.

(* what the ordered rule list guarantees about a match at  c :: r : the value sits at value_offset, and a STRING
   match is the opening quote up to the first later occurrence of the same quote *)
Definition rule_ok (c : N) (r : str) (e : eres) : Prop :=
  match e with
  | EM k vo vl tot =>
      vo = value_offset k r /\
      (k = EString -> is_quote c = true /\ exists u n, find_first (qclose c) r = Some (vl, u, n) /\ tot = 1 + n)
  | _ => True
  end.

(* a rule whose kind is fixed, is not STRING, and whose value is the whole match *)
Local Ltac whole_match := split; [reflexivity | discriminate].

Lemma ematch_rule c r : rule_ok c r (ematch (c :: r)).
Proof.
  unfold ematch. cbv zeta.
  destruct (N.eqb c c_lparen && rl_ahead r); [whole_match|].
  destruct (if N.eqb c c_lbrack then m_identindex r else None) as [[[vo vl] tot]|] eqn:E1.
  { split; [|discriminate]. destruct (N.eqb c c_lbrack); [|discriminate E1]. exact (m_identindex_voff _ _ _ _ E1). }
  destruct (if N.eqb c c_lbrack then m_identstring r else None) as [[[vo vl] tot]|] eqn:E2.
  { split; [|discriminate]. destruct (N.eqb c c_lbrack); [|discriminate E2]. exact (m_identstring_voff _ _ _ _ E2). }
  destruct (if is_quote c then find_first (qclose c) r else None) as [[[j u] n]|] eqn:E3.
  { split; [reflexivity|]. intros _. destruct (is_quote c); [|discriminate E3].
    split; [reflexivity|]. exists u, n. split; [exact E3|reflexivity]. }
  (* the remaining rules *)
  destruct (prefixb [c_dot; c_dot] (c :: r)); [whole_match|].
  destruct (m_number (c :: r)) as [[k n]|] eqn:En; [apply m_number_kind in En as [-> | ->]; whole_match|].
  destruct (N.eqb c c_dot); [whole_match|].
  destruct (is_word c); [destruct (is_keyword _); whole_match|].
  destruct (N.eqb c c_lparen); [whole_match|]. destruct (N.eqb c c_rparen); [whole_match|].
  destruct (N.eqb c c_lbrack); [whole_match|]. destruct (N.eqb c c_rbrack); [whole_match|].
  destruct (N.eqb c c_colon); [whole_match|]. destruct (N.eqb c c_comma); [whole_match|].
  destruct (N.eqb c c_pipe); [destruct (hd_is c_pipe r); whole_match|].
  destruct (is_opchar c).
  { destruct (op_kind _) as [k|] eqn:Eo; [|exact I]. split.
    - symmetry. exact (op_kind_value_offset _ _ _ Eo).
    - intros ->. discriminate (op_kind_value_offset _ _ [] Eo). }
  destruct (is_eskip c); exact I.
Qed.

Lemma find_first_qclose q r j u n : find_first (qclose q) r = Some (j, u, n) -> n = j + 1 /\ sub r j 1 = [q].
Proof.
  intros H. apply find_first_hit in H as (m & Hm & -> & _). unfold qclose in Hm. unfold sub.
  destruct (skipn j r) as [|c x]; [discriminate|]. destruct (N.eqb_spec c q) as [->|]; [|discriminate].
  injection Hm as _ <-. split; reflexivity.
Qed.

(* an item points, relative to base, at its own text in src *)
Definition eitem_ok (base : N) (src : str) (i : eitem) : Prop :=
  match i with
  | ETok t => exists o, e_start t = (base + N.of_nat o)%N /\ o < length src /\
                        sub src (o + value_offset (e_kind t) (skipn (S o) src)) (length (e_value t)) = e_value t
  | EErrIllegal v p | EErrOp v p =>
      exists o, p = (base + N.of_nat o)%N /\ o < length src /\ sub src o (length v) = v
  end.

Lemma ego_ok base src : forall s skip pre, src = pre ++ s ->
  forall i, In i (ego skip (base + N.of_nat (length pre)) s) -> eitem_ok base src i.
Proof.
  induction s as [|c s IH]; intros skip pre Hsrc i Hin; [destruct Hin|].
  assert (Hp : N.succ (base + N.of_nat (length pre)) = (base + N.of_nat (length (pre ++ [c])))%N)
    by (rewrite last_length; lia).
  assert (Hsrc' : src = (pre ++ [c]) ++ s) by (rewrite <- app_assoc; exact Hsrc).
  assert (Hlt : length pre < length src) by (subst src; rewrite app_length; simpl; lia).
  assert (Herr : forall n, sub src (length pre) (length (firstn n (c :: s))) = firstn n (c :: s)).
  { intros n. subst src. pose proof (sub_in_app pre (c :: s) 0 n) as Hs. rewrite Nat.add_0_r in Hs. exact Hs. }
  cbn [ego] in Hin. destruct skip as [|k].
  - pose proof (ematch_rule c s) as R.
    destruct (ematch (c :: s)) as [kd vo vl tot|tot|tot|].
    + destruct Hin as [<-|Hin].
      * exists (length pre). cbn [e_start e_kind e_value]. repeat split; auto.
        destruct R as [-> _]. subst src. rewrite <- (Nat.add_1_r (length pre)), skipn_app_len_add. apply sub_in_app.
      * rewrite Hp in Hin. eapply IH; eauto.
    + rewrite Hp in Hin. eapply IH; eauto.
    + destruct Hin as [<-|[]]. exists (length pre). repeat split; auto.
    + destruct Hin as [<-|[]]. exists (length pre). repeat split; auto.
  - rewrite Hp in Hin. eapply IH; eauto.
Qed.
