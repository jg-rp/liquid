(* Limits_Sim_Proofs.v — part 2: (a) a completed run under a loop limit L has a static largest product <= L;
   (b) two runs of the interpreter under two configurations, related by agreement up to a set of error classes;
   (c) the pointwise order on configurations; (d) the simulation: under larger limits a run that completes completes
   identically, a run that fails either fails identically or fails with the error class of a limit that was made
   larger; (e) a loop limit that no reached nest exceeds changes nothing (lists, partials; run_prog: C06_no_false_alarm);
   (f) STRICT against the other modes, as hypotheses of run_agree (run_prog: C08_mode_agreement). *)
From Coq Require Import ZifyBool.
From LiquidVerif Require Import Prelude PyPrims Limits Limits_Proofs.
Import ListNotations.
Local Open Scope Z_scope.

(* H : seq a b s = LOk s'.  step names the state between a and b (H0, H1 ... for a, H stays for b); gstep, nstep and
   ndstep also use up a, a check that must have passed (G, G0 ..., Nn, Nd) *)
Ltac step H :=
  let s1 := fresh "s" in let H1 := fresh "H" in
  apply seq_ok in H; destruct H as (s1 & H1 & H).
Ltac gstep H :=
  let s1 := fresh "s" in let H1 := fresh "G" in
  apply seq_ok in H; destruct H as (s1 & H1 & H); apply guard_ok in H1; destruct H1 as [H1 ->].

Ltac nstep H :=
  let s1 := fresh "s" in let H1 := fresh "Nn" in
  apply seq_ok in H; destruct H as (s1 & H1 & H); apply nest_guard_ok in H1; destruct H1 as [H1 ->].
Ltac ndstep H :=
  let s1 := fresh "s" in let H1 := fresh "Nd" in
  apply seq_ok in H; destruct H as (s1 & H1 & H); apply nestd_guard_ok in H1; destruct H1 as [H1 ->].

(* ------------------------------------------------------------------ (a) static largest product (STRICT) *)
Lemma maxprodS_eq tp sup nd :
  maxprodS tp sup nd =
  match nd with
  | Text _ | Echo _ | Assign _ _ | SuperU => 0
  | Capture _ b | IfChanged b | Include b => maxprodS_list tp sup b
  | Render b | Call b | BlockD b => maxprodS_list tp false b
  | Block b => maxprodS_list tp true b
  | Super b => if sup then maxprodS_list tp true b else 0
  | For n b | Tablerow n b | IncludeArr n b => if (n =? 0)%N then 0 else N.max (tp * n) (maxprodS_list (tp * n) sup b)
  | RenderFor n b => if (n =? 0)%N then 0 else N.max (tp * n) (maxprodS_list (tp * n) false b)
  end%N.
Proof.
  assert (E : forall tp sup l, (fix mx (tp : N) (sup : bool) (l : list node) : N :=
               match l with [] => 0%N | x :: r => N.max (maxprodS tp sup x) (mx tp sup r) end) tp sup l = maxprodS_list tp sup l).
  { intros tp0 sup0 l; induction l as [|x r IH]; simpl; [reflexivity|]. rewrite IH. reflexivity. }
  destruct nd; simpl; rewrite ?E; reflexivity.
Qed.

(* is a block object with a parent block in scope? *)
Definition supflag (f : frame) : bool := match f_sup f with SupNone => false | _ => true end.
(* frames that differ in what they remember of the block's buffer only *)
Definition fz (f f' : frame) : Prop :=
  f_loops f' = f_loops f /\ f_carry f' = f_carry f /\ f_sup f' = f_sup f /\ f_tp f' = f_tp f.
Lemma fz_freeze f b : fz f (f_freeze f b).
Proof. repeat split. Qed.
Lemma fz_trans f g h : fz f g -> fz g h -> fz f h.
Proof. intros (A1 & A2 & A3 & A4) (B1 & B2 & B3 & B4). repeat split; congruence. Qed.

Section Static.
  Variables (v : variant) (lim : limits) (L : N).
  Hypothesis Hv : is_repaired v.
  Hypothesis HL : l_loop lim = Some L.

  (* a completed repeating construct with at least one item has run its block once *)
  Lemma iter_pos_first n (body : Z -> M) s s' :
    (n =? 0)%N = false -> iter 1 (N.to_nat n) body s = LOk s' -> exists s1, body 1 s = LOk s1.
  Proof.
    intros En H. destruct (N.to_nat n) as [|m] eqn:Em; [|exact (iter_first body m 1 s s' H)].
    rewrite <- (N2Nat.id n), Em in En. discriminate En.
  Qed.

  Definition okP (nd : node) : Prop :=
    forall f s s', linv L f -> exec v Strict lim nd f s = LOk s' -> (maxprodS (f_tp f) (supflag f) nd <= L)%N.
  Definition okQ (l : list node) : Prop :=
    forall f s s', linv L f -> exec_list v Strict lim l f s = LOk s' -> (maxprodS_list (f_tp f) (supflag f) l <= L)%N.

  Lemma block_within b : okQ b -> forall f s s', linv L f ->
    block v Strict lim b f s = LOk s' -> (maxprodS_list (f_tp f) (supflag f) b <= L)%N.
  Proof.
    intros IH f s s' HI H. unfold block in H. destruct (blank_list b).
    - apply in_null_ok in H. destruct H as (s1 & H1 & _).
      exact (IH (f_freeze f (s_buf s)) _ _ (linv_freeze L f _ HI) H1).
    - exact (IH f s s' HI H).
  Qed.

  Lemma partial_within b : okQ b -> forall f s s', linv L f ->
    partial v Strict lim b f s = LOk s' -> (maxprodS_list (f_tp f) (supflag f) b <= L)%N.
  Proof.
    intros IH f s s' HI H. unfold partial in H. gstep H. rewrite run_nodes_strict in H.
    exact (IH (f_ext f) s s' (linv_ext L f HI) H).
  Qed.

  Theorem exec_list_maxprod : forall l, okQ l.
  Proof.
    apply (list_node_ind' okP okQ); unfold okP.
    - intros t f s s' _ _. rewrite maxprodS_eq. lia.
    - intros x f s s' _ _. rewrite maxprodS_eq. lia.
    - intros x t f s s' _ _. rewrite maxprodS_eq. lia.
    - (* Capture *) intros x b IH f s s' HI H. rewrite maxprodS_eq. rewrite exec_eq in H.
      apply in_child_ok in H. destruct H as (s1 & H1 & _).
      exact (block_within b IH (f_freeze f (s_buf s)) _ _ (linv_freeze L f _ HI) H1).
    - (* IfChanged *) intros b IH f s s' HI H. rewrite maxprodS_eq. rewrite exec_eq in H.
      apply in_child_ok in H. destruct H as (s1 & H1 & _).
      exact (block_within b IH (f_freeze f (s_buf s)) _ _ (linv_freeze L f _ HI) H1).
    - (* For *) intros n b IH f s s' HI H. rewrite maxprodS_eq. rewrite exec_eq in H.
      destruct (n =? 0)%N eqn:En; [lia|]. gstep H. gstep H.
      apply (iter_pos_first n _ _ _ En) in H. destruct H as (s1 & H). (* H : the block ran once *)
      pose proof (linv_for v lim L Hv HL f n HI En G) as HI'.
      pose proof (block_within b IH _ _ _ HI' H) as IHb.
      destruct HI' as (_ & (_ & Ht) & _). apply N.max_lub; [exact Ht|exact IHb].
    - (* Tablerow *) intros n b IH f s s' HI H. rewrite maxprodS_eq. rewrite exec_eq in H.
      destruct (n =? 0)%N eqn:En; [lia|]. gstep H. step H. gstep H. step H. (* H1 : the cells *)
      apply (iter_pos_first n _ _ _ En) in H1. destruct H1 as (s3 & H1).
      step H1. step H1. (* H3 : the block ran once *)
      pose proof (linv_scale v lim L Hv HL (f_ext f) n (linv_ext L f HI) En G) as HI'.
      pose proof (block_within b IH _ _ _ HI' H3) as IHb.
      destruct HI' as (_ & (_ & Ht) & _). apply N.max_lub; [exact Ht|exact IHb].
    - (* Include *) intros b IH f s s' HI H. rewrite maxprodS_eq. rewrite exec_eq in H.
      gstep H. nstep H. gstep H. exact (partial_within b IH (f_ext f) _ _ (linv_ext L f HI) H).
    - (* IncludeArr *) intros n b IH f s s' HI H. rewrite maxprodS_eq. rewrite exec_eq in H.
      destruct (n =? 0)%N eqn:En; [lia|]. gstep H. nstep H. gstep H. gstep H.
      apply (iter_pos_first n _ _ _ En) in H. destruct H as (s1 & H).
      pose proof (linv_scale v lim L Hv HL (f_ext f) n (linv_ext L f HI) En G1) as HI'.
      pose proof (partial_within b IH _ _ _ HI' H) as IHb.
      destruct HI' as (_ & (_ & Ht) & _). apply N.max_lub; [exact Ht|exact IHb].
    - (* Render *) intros b IH f s s' HI H. rewrite maxprodS_eq. rewrite exec_eq in H.
      nstep H. gstep H. apply in_ctx_ok in H. destruct H as (s1 & H & _).
      exact (partial_within b IH (f_copy f) _ _ (linv_copy L f HI) H).
    - (* RenderFor *) intros n b IH f s s' HI H. rewrite maxprodS_eq. rewrite exec_eq in H.
      destruct (n =? 0)%N eqn:En; [lia|]. nstep H. gstep H. gstep H.
      pose proof (linv_scale v lim L Hv HL _ n (linv_copy L f HI) En G0) as HI'.
      assert (IHb : (maxprodS_list (f_tp f * n) false b <= L)%N).
      { destruct (v_item v).
        - apply (iter_pos_first n _ _ _ En) in H. destruct H as (s3 & H). apply in_ctx_ok in H. destruct H as (s4 & H & _).
          exact (partial_within b IH _ _ _ HI' H).
        - apply in_ctx_ok in H. destruct H as (s1 & H & _). apply (iter_pos_first n _ _ _ En) in H. destruct H as (s3 & H).
          exact (partial_within b IH _ _ _ HI' H). }
      destruct HI' as (_ & (_ & Ht) & _). apply N.max_lub; [exact Ht|exact IHb].
    - (* Call *) intros b IH f s s' HI H. rewrite maxprodS_eq. rewrite exec_eq in H.
      gstep H. apply in_ctx_ok in H. destruct H as (s1 & H & _).
      exact (block_within b IH (f_call f) _ _ (linv_call L f HI) H).
    - (* Block *) intros b IH f s s' HI H. rewrite maxprodS_eq. rewrite exec_eq in H.
      gstep H. gstep H. apply in_blk_ok in H. destruct H as (s1 & H & _).
      exact (block_within b IH (f_blk f) _ _ (linv_blk L f HI) H).
    - (* BlockD *) intros b IH f s s' HI H. rewrite maxprodS_eq. rewrite exec_eq in H.
      gstep H. gstep H.
      exact (block_within b IH (f_sup_set (f_ext f) SupNone) _ _ (linv_sup_set L _ _ (linv_ext L f HI) (or_introl eq_refl)) H).
    - (* Super *) intros b IH f s s' HI H. rewrite maxprodS_eq. rewrite exec_eq in H. unfold supflag.
      destruct (f_sup f) as [| |bf] eqn:Es; [lia| |].
      + unfold in_sup in H. apply in_childb_ok in H. destruct H as (s1 & H & _). gstep H.
        exact (block_within b IH (f_sup_set (f_ext f) SupHere) _ _ (linv_sup_set L _ _ (linv_ext L f HI) (or_intror eq_refl)) H).
      + unfold in_sup in H. apply in_childb_ok in H. destruct H as (s1 & H & _).
        apply in_base_ok in H. destruct H as (cb & s2 & _ & H & _). gstep H.
        exact (block_within b IH (f_ext (f_base v bf f)) _ _ (linv_ext L _ (linv_base v L Hv f bf HI Es)) H).
    - (* SuperU *) intros f s s' _ _. rewrite maxprodS_eq. lia.
    - (* nil *) intros f s s' _ _. simpl. lia.
    - (* cons *) intros x r IHx IHr f s0 s1 HI H. rewrite exec_list_cons in H. step H.
      simpl. specialize (IHx f s0 s HI H0). specialize (IHr f s s1 HI H). lia.
  Qed.
End Static.

(* ------------------------------------------------------------------ (b) two renders of one template *)
(* m' agrees with m up to X: it returns what m returns, unless m raises an error whose class is in X.  The
   simulation (X = the classes of the limits that were raised), the absence of false alarms (X empty) and the
   agreement of the modes (X = every class) are this relation between two runs of the interpreter. *)
Section Agree.
  Variable X : lexn -> Prop.

  Definition excused (r : lres st) : Prop := match r with LErr e _ => X e | _ => False end.
  Definition agree (m m' : M) : Prop := forall s, m' s = m s \/ excused (m s).

  Lemma excused_err r : excused r -> exists e s1, r = LErr e s1 /\ X e.
  Proof. destruct r as [s1|e s1|]; intro Hx; [destruct Hx| |destruct Hx]. exists e, s1. split; [reflexivity|exact Hx]. Qed.

  Lemma agree_refl m : agree m m.
  Proof. intro s. left. reflexivity. Qed.

  Lemma agree_seq m1 m1' m2 m2' : agree m1 m1' -> agree m2 m2' -> agree (seq m1 m2) (seq m1' m2').
  Proof.
    intros H1 H2 s. unfold seq. destruct (H1 s) as [->|Hx].
    - destruct (m1 s) as [s1|e s1|]; [apply H2|left; reflexivity|left; reflexivity].
    - destruct (excused_err _ Hx) as (e & s1 & -> & Xe). right. exact Xe.
  Qed.

  Lemma agree_after m m2 m2' : agree m2 m2' -> agree (seq m m2) (seq m m2').
  Proof. apply agree_seq. apply agree_refl. Qed.

  Lemma agree_iter body body' : (forall k, agree (body k) (body' k)) -> forall n k, agree (iter k n body) (iter k n body').
  Proof. intros Hb. induction n as [|n IH]; intro k; [apply agree_refl|]. apply agree_seq; [apply Hb|apply IH]. Qed.

  (* the block of a repeating construct only runs if there is an item *)
  Lemma agree_repeat n body body' :
    ((n =? 0)%N = false -> forall k, agree (body k) (body' k)) -> agree (iter 1 (N.to_nat n) body) (iter 1 (N.to_nat n) body').
  Proof.
    intro Hb. destruct (n =? 0)%N eqn:En; [|apply agree_iter; apply Hb; reflexivity].
    apply N.eqb_eq in En. subst n. apply agree_refl.
  Qed.

  (* a check that can only have become laxer: where the first run raises and the second does not, the class is in X *)
  Lemma agree_guard g g' e : (g' = true -> g = true) -> (g = true -> g' = false -> X e) -> agree (guard g e) (guard g' e).
  Proof.
    intros Hm Hb s. unfold guard. destruct g, g'; [left; reflexivity|right; exact (Hb eq_refl eq_refl)| |left; reflexivity].
    discriminate (Hm eq_refl).
  Qed.

  Lemma agree_in_null m m' : agree m m' -> agree (in_null m) (in_null m').
  Proof.
    intros H s. unfold in_null. destruct (H (set_buf s BNull)) as [->|Hx]; [left; reflexivity|].
    destruct (excused_err _ Hx) as (e & s1 & -> & Xe). right. exact Xe.
  Qed.

  Lemma agree_in_childb_at cb m m' k k' s : agree m m' -> (forall val, agree (k val) (k' val)) ->
    in_childb cb m' k' s = in_childb cb m k s \/ excused (in_childb cb m k s).
  Proof.
    intros H Hk. unfold in_childb. destruct (H (set_buf s cb)) as [->|Hx].
    - destruct (m (set_buf s cb)) as [s1|e s1|]; [apply Hk|left; reflexivity|left; reflexivity].
    - destruct (excused_err _ Hx) as (e & s1 & -> & Xe). right. exact Xe.
  Qed.

  Lemma agree_in_child m m' k k' : agree m m' -> (forall val, agree (k val) (k' val)) -> agree (in_child m k) (in_child m' k').
  Proof. intros H Hk s. unfold in_child. apply agree_in_childb_at; assumption. Qed.

  Lemma agree_in_ctx m m' : agree m m' -> agree (in_ctx m) (in_ctx m').
  Proof.
    intros H s. unfold in_ctx. destruct (H (set_cx s (cx_copy (s_cx s)))) as [->|Hx]; [left; reflexivity|].
    destruct (excused_err _ Hx) as (e & s1 & -> & Xe). right. exact Xe.
  Qed.

  Lemma agree_in_blk m m' : agree m m' -> agree (in_blk m) (in_blk m').
  Proof.
    intros H s. unfold in_blk. destruct (H (set_cx s (cx_blk (s_cx s)))) as [->|Hx]; [left; reflexivity|].
    destruct (excused_err _ Hx) as (e & s1 & -> & Xe). right. exact Xe.
  Qed.

  Lemma agree_in_base v m m' : agree m m' -> agree (in_base v m) (in_base v m').
  Proof.
    intros H s. unfold in_base. destruct (cx_base v (s_cx s)) as [cb|]; [|left; reflexivity].
    destruct (H (set_cx s cb)) as [->|Hx]; [left; reflexivity|].
    destruct (excused_err _ Hx) as (e & s1 & -> & Xe). right. exact Xe.
  Qed.

  Lemma agree_fun (F F' : st -> M) : (forall s0, agree (F s0) (F' s0)) -> agree (fun s => F s s) (fun s => F' s s).
  Proof. intros H s. apply (H s s). Qed.

  (* The interpreter under two configurations.  What a configuration decides - the writes, the assignments, the
     checks of the limits and the mode's handlers - is assumed to agree; every construct then does. *)
  Section Walk.
    Variables (v : variant) (md md' : mode) (lim lim' : limits).
    Hypothesis A_write : forall t, agree (m_write lim t) (m_write lim' t).
    Hypothesis A_assign : forall x val, agree (m_assign v lim x val) (m_assign v lim' x val).
    Hypothesis A_loop : forall f n, agree (guard (loop_exceeded v lim f n) XLoop) (guard (loop_exceeded v lim' f n) XLoop).
    Hypothesis A_depth : forall f, agree (guard (depth_exceeded lim f) XDepth) (guard (depth_exceeded lim' f) XDepth).
    Hypothesis A_copy : forall f, agree (guard (copy_exceeded lim f) XDepth) (guard (copy_exceeded lim' f) XDepth).
    Hypothesis A_nest : forall d, agree (nestd_guard md (d >? l_nest lim)) (nestd_guard md' (d >? l_nest lim')).
    Hypothesis A_chain : forall loaded, agree (nestd_guard md (chain_too_deep lim loaded)) (nestd_guard md' (chain_too_deep lim' loaded)).
    Hypothesis A_handle : forall m m', agree m m' -> agree (handle md m) (handle md' m').
    Hypothesis A_handle_out : forall m m', agree m m' -> agree (handle_out md m) (handle_out md' m').

    Lemma agree_ifchanged val : agree (m_ifchanged lim val) (m_ifchanged lim' val).
    Proof. intro s. unfold m_ifchanged. destruct (str_eqb val (s_ifch s)); [left; reflexivity|apply A_write]. Qed.

    Lemma agree_in_sup f m m' : agree m m' -> agree (in_sup lim f m) (in_sup lim' f m').
    Proof. intros H s. unfold in_sup. apply agree_in_childb_at; [exact H|exact A_write]. Qed.

    Lemma agree_nest_guard body : agree (nest_guard md lim body) (nest_guard md' lim' body).
    Proof. apply A_nest. Qed.

    (* the list part of the induction carries both readings of a list: as a block and as a template *)
    Definition agreeQ (l : list node) : Prop :=
      (forall f, agree (exec_list v md lim l f) (exec_list v md' lim' l f)) /\
      (forall f, agree (run_nodes v md lim l f) (run_nodes v md' lim' l f)).

    Lemma agree_block body : agreeQ body -> forall f, agree (block v md lim body f) (block v md' lim' body f).
    Proof.
      intros [H _] f. unfold block. destruct (blank_list body); [|apply H].
      apply (agree_fun (fun s0 => in_null (exec_list v md lim body (f_freeze f (s_buf s0))))
                       (fun s0 => in_null (exec_list v md' lim' body (f_freeze f (s_buf s0))))).
      intro s0. apply agree_in_null. apply H.
    Qed.

    Lemma agree_buffered body k k' : agreeQ body -> (forall val, agree (k val) (k' val)) -> forall f,
      agree (fun s => in_child (block v md lim body (f_freeze f (s_buf s))) k s)
            (fun s => in_child (block v md' lim' body (f_freeze f (s_buf s))) k' s).
    Proof.
      intros H Hk f.
      apply (agree_fun (fun s0 => in_child (block v md lim body (f_freeze f (s_buf s0))) k)
                       (fun s0 => in_child (block v md' lim' body (f_freeze f (s_buf s0))) k')).
      intro s0. apply agree_in_child; [apply agree_block; exact H|exact Hk].
    Qed.

    Lemma agree_partial body : agreeQ body -> forall f, agree (partial v md lim body f) (partial v md' lim' body f).
    Proof. intros [_ H] f. unfold partial. apply agree_seq; [apply A_depth|apply H]. Qed.

    Theorem exec_list_agree : forall l, agreeQ l.
    Proof.
      apply (list_node_ind' (fun nd => forall f, agree (exec v md lim nd f) (exec v md' lim' nd f)) agreeQ).
      - (* Text *) intros t f. rewrite !exec_eq. apply agree_seq; [apply agree_refl|apply A_write].
      - (* Echo *) intros x f. rewrite !exec_eq.
        apply (agree_fun (fun s0 => m_write lim (lookup x s0)) (fun s0 => m_write lim' (lookup x s0))). intro s0. apply A_write.
      - (* Assign *) intros x t f. rewrite !exec_eq. apply A_assign.
      - (* Capture *) intros x body IH f. rewrite !exec_eq. apply (agree_buffered body _ _ IH (A_assign x)).
      - (* IfChanged *) intros body IH f. rewrite !exec_eq. apply (agree_buffered body _ _ IH agree_ifchanged).
      - (* For *) intros n body IH f. rewrite !exec_eq. destruct (n =? 0)%N; [apply agree_refl|].
        apply agree_seq; [apply A_loop|]. apply agree_seq; [apply A_depth|].
        apply agree_iter. intro k. apply agree_block; exact IH.
      - (* Tablerow *) intros n body IH f. rewrite !exec_eq.
        apply agree_seq; [apply A_loop|]. apply agree_seq; [apply A_write|]. apply agree_seq; [apply A_depth|].
        apply agree_seq; [|apply A_write]. apply agree_iter. intro k.
        apply agree_seq; [apply A_write|]. apply agree_seq; [apply agree_block; exact IH|apply A_write].
      - (* Include *) intros body IH f. rewrite !exec_eq.
        apply agree_after. apply agree_seq; [apply agree_nest_guard|]. apply agree_seq; [apply A_depth|].
        apply agree_partial; exact IH.
      - (* IncludeArr *) intros n body IH f. rewrite !exec_eq.
        apply agree_after. apply agree_seq; [apply agree_nest_guard|]. apply agree_seq; [apply A_depth|].
        apply agree_seq; [apply A_loop|]. apply agree_iter. intro k. apply agree_partial; exact IH.
      - (* Render *) intros body IH f. rewrite !exec_eq.
        apply agree_seq; [apply agree_nest_guard|]. apply agree_seq; [apply A_copy|].
        apply agree_in_ctx. apply agree_partial; exact IH.
      - (* RenderFor *) intros n body IH f. rewrite !exec_eq.
        apply agree_seq; [apply agree_nest_guard|]. apply agree_seq; [apply A_copy|]. apply agree_seq; [apply A_loop|].
        destruct (v_item v).
        + apply agree_iter. intro k. apply agree_in_ctx. apply agree_partial; exact IH.
        + apply agree_in_ctx. apply agree_iter. intro k. apply agree_partial; exact IH.
      - (* Call *) intros body IH f. rewrite !exec_eq.
        apply agree_seq; [apply A_copy|]. apply agree_in_ctx. apply agree_block; exact IH.
      - (* Block *) intros body IH f. rewrite !exec_eq.
        apply agree_after. apply agree_seq; [apply A_copy|]. apply agree_in_blk. apply agree_block; exact IH.
      - (* BlockD *) intros body IH f. rewrite !exec_eq.
        apply agree_after. apply agree_seq; [apply A_depth|]. apply agree_block; exact IH.
      - (* Super *) intros body IH f. rewrite !exec_eq. destruct (f_sup f) as [| |bf].
        + apply agree_refl.
        + apply agree_in_sup. apply agree_seq; [apply A_depth|]. apply agree_block; exact IH.
        + apply agree_in_sup. apply agree_in_base. apply agree_seq; [apply A_depth|]. apply agree_block; exact IH.
      - (* SuperU *) intro f. rewrite !exec_eq. apply agree_refl.
      - (* nil *) split; intro f; apply agree_refl.
      - (* cons *) intros x r IHx [IHr1 IHr2]. split; intro f.
        + rewrite !exec_list_cons. apply agree_seq; [apply IHx|apply IHr1].
        + rewrite !run_nodes_cons. apply agree_seq; [apply A_handle; apply IHx|apply IHr2].
    Qed.

    (* whole render, including the parse-time nesting checks *)
    Theorem run_agree chain main glob sizes :
      run_prog v md' lim' chain main glob sizes = run_prog v md lim chain main glob sizes \/
      excused (run_prog v md lim chain main glob sizes).
    Proof.
      rewrite !run_prog_render. generalize (st0 glob sizes).
      change (agree (render v md lim chain main) (render v md' lim' chain main)).
      destruct chain as [|d0 loaded]; unfold render.
      - apply agree_seq; [apply agree_nest_guard|]. apply agree_partial. apply exec_list_agree.
      - apply agree_seq; [apply A_nest|]. apply agree_seq; [apply A_depth|]. apply A_handle_out.
        apply agree_seq; [apply A_chain|]. apply agree_partial. apply exec_list_agree.
    Qed.
  End Walk.
End Agree.

(* ------------------------------------------------------------------ (c) the order on configurations *)
Definition opt_le {A} (le : A -> A -> Prop) (a b : option A) : Prop :=
  match a, b with
  | _, None => True
  | Some x, Some y => le x y
  | None, Some _ => False
  end.

(* pointwise order on configurations; None (not configured) is the top element *)
Definition lim_le (a b : limits) : Prop :=
  opt_le N.le (l_loop a) (l_loop b) /\ opt_le Z.le (l_out a) (l_out b) /\ opt_le Z.le (l_ns a) (l_ns b) /\
  l_depth a <= l_depth b /\ l_nest a <= l_nest b.

Definition opt_join {A} (mx : A -> A -> A) (x y : option A) : option A :=
  match x, y with Some p, Some q => Some (mx p q) | _, _ => None end.

Definition lim_join (a b : limits) : limits :=
  {| l_loop := opt_join N.max (l_loop a) (l_loop b); l_out := opt_join Z.max (l_out a) (l_out b);
     l_ns := opt_join Z.max (l_ns a) (l_ns b); l_depth := Z.max (l_depth a) (l_depth b); l_nest := Z.max (l_nest a) (l_nest b) |}.

Lemma opt_le_refl {A} (le : A -> A -> Prop) x : (forall p, le p p) -> opt_le le x x.
Proof. intro H. destruct x as [p|]; [apply H|exact I]. Qed.

Lemma opt_le_none {A} (le : A -> A -> Prop) x : opt_le le x None.
Proof. destruct x; exact I. Qed.

Lemma opt_le_join_l {A} (le : A -> A -> Prop) mx x y : (forall p q, le p (mx p q)) -> opt_le le x (opt_join mx x y).
Proof. intro H. destruct x as [p|], y as [q|]; [apply H|exact I|exact I|exact I]. Qed.

Lemma opt_le_join_r {A} (le : A -> A -> Prop) mx x y : (forall p q, le q (mx p q)) -> opt_le le y (opt_join mx x y).
Proof. intro H. destruct x as [p|], y as [q|]; [apply H|exact I|exact I|exact I]. Qed.

Lemma lim_le_join_l a b : lim_le a (lim_join a b).
Proof.
  unfold lim_le, lim_join; cbn [l_loop l_out l_ns l_depth l_nest].
  split; [apply opt_le_join_l; exact N.le_max_l|]. split; [apply opt_le_join_l; exact Z.le_max_l|].
  split; [apply opt_le_join_l; exact Z.le_max_l|]. split; apply Z.le_max_l.
Qed.

Lemma lim_le_join_r a b : lim_le b (lim_join a b).
Proof.
  unfold lim_le, lim_join; cbn [l_loop l_out l_ns l_depth l_nest].
  split; [apply opt_le_join_r; exact N.le_max_r|]. split; [apply opt_le_join_r; exact Z.le_max_r|].
  split; [apply opt_le_join_r; exact Z.le_max_r|]. split; apply Z.le_max_r.
Qed.

Lemma lim_le_refl a : lim_le a a.
Proof.
  unfold lim_le. split; [apply opt_le_refl; exact N.le_refl|]. split; [apply opt_le_refl; exact Z.le_refl|].
  split; [apply opt_le_refl; exact Z.le_refl|]. split; apply Z.le_refl.
Qed.

Definition with_loop (a : limits) (x : option N) : limits :=
  {| l_loop := x; l_out := l_out a; l_ns := l_ns a; l_depth := l_depth a; l_nest := l_nest a |}.
Definition with_out (a : limits) (x : option Z) : limits :=
  {| l_loop := l_loop a; l_out := x; l_ns := l_ns a; l_depth := l_depth a; l_nest := l_nest a |}.

Lemma lim_le_with_loop a : lim_le a (with_loop a None).
Proof. destruct (lim_le_refl a) as (_ & H). split; [apply opt_le_none|exact H]. Qed.
Lemma lim_le_with_out a : lim_le a (with_out a None).
Proof. destruct (lim_le_refl a) as (Hl & _ & H). split; [exact Hl|]. split; [apply opt_le_none|exact H]. Qed.

(* ------------------------------------------------------------------ (d) simulation *)
(* the error class belongs to a limit on which the two configurations differ *)
Definition blame (a b : limits) (e : lexn) : Prop :=
  match e with
  | XLoop => l_loop a <> l_loop b
  | XOutput => l_out a <> l_out b
  | XNamespace => l_ns a <> l_ns b
  | XDepth => l_depth a <> l_depth b
  | XNesting => l_nest a <> l_nest b
  | XDisabled => False
  end.

Lemma blame_is_limit a b e : blame a b e -> is_limit e = true.
Proof. destruct e; simpl; intro H; try reflexivity. destruct H. Qed.

(* where a single limit was changed, only that limit's class can be blamed *)
Lemma blame_with_loop a x e : blame a (with_loop a x) e -> e = XLoop.
Proof. destruct e; simpl; intro H; [reflexivity|destruct H; reflexivity ..]. Qed.

Lemma blame_with_out a x e : blame a (with_out a x) e -> e = XOutput.
Proof. destruct e; simpl; intro H; [destruct H; reflexivity|reflexivity|destruct H; reflexivity ..]. Qed.

(* in STRICT mode the handlers do nothing *)
Lemma agree_handle_strict X m m' : agree X m m' -> agree X (handle Strict m) (handle Strict m').
Proof. intros H s. rewrite !handle_strict. apply H. Qed.

Lemma agree_handle_out_strict X m m' : agree X m m' -> agree X (handle_out Strict m) (handle_out Strict m').
Proof. intros H s. rewrite !handle_out_strict. apply H. Qed.

Section Sim.
  Variables (v : variant) (a b : limits).
  Hypothesis Hv : is_repaired v.
  Hypothesis Hle : lim_le a b.

  Lemma le_write t : agree (blame a b) (m_write a t) (m_write b t).
  Proof.
    intro s. unfold m_write, buf_write. destruct t as [|c t]; [left; reflexivity|].
    destruct (s_buf s) as [|base size rt]; [left; reflexivity|].
    destruct Hle as (_ & Ho & _). unfold opt_le in Ho.
    destruct (l_out a) as [La|] eqn:Ea, (l_out b) as [Lb|] eqn:Eb; try contradiction; simpl.
    - destruct (_ >? La - base) eqn:E1, (_ >? Lb - base) eqn:E2; simpl; auto; try lia.
      right. rewrite Ea, Eb. intro Heq. inversion Heq. lia.
    - destruct (_ >? La - base) eqn:E1; simpl; auto. right. rewrite Ea, Eb. discriminate.
    - left; reflexivity.
  Qed.

  Lemma le_assign x val : agree (blame a b) (m_assign v a x val) (m_assign v b x val).
  Proof.
    intro s. unfold m_assign. destruct (s_sizes s) as [|z rest]; [left; reflexivity|].
    rewrite !(ns_limit_repaired v _ Hv).
    destruct Hle as (_ & _ & Hn & _). unfold opt_le in Hn.
    destruct (l_ns a) as [La|] eqn:Ea, (l_ns b) as [Lb|] eqn:Eb; try contradiction; simpl.
    - destruct (_ >? La) eqn:E1, (_ >? Lb) eqn:E2; simpl; auto; try lia.
      right. rewrite Ea, Eb. intro Heq. inversion Heq. lia.
    - destruct (_ >? La) eqn:E1; simpl; auto. right. rewrite Ea, Eb. discriminate.
    - left; reflexivity.
  Qed.

  Lemma le_loop_guard f n : agree (blame a b) (guard (loop_exceeded v a f n) XLoop) (guard (loop_exceeded v b f n) XLoop).
  Proof.
    unfold loop_exceeded. rewrite !(loop_limit_repaired v _ Hv).
    destruct Hle as (Hl & _). unfold opt_le in Hl.
    destruct (l_loop a) as [La|] eqn:Ea, (l_loop b) as [Lb|] eqn:Eb; try contradiction.
    - apply agree_guard; [lia|]. intros H1 H2. simpl. rewrite Ea, Eb. intro Heq. inversion Heq. lia.
    - apply agree_guard; [discriminate|]. intros H1 H2. simpl. rewrite Ea, Eb. discriminate.
    - apply agree_refl.
  Qed.

  (* a check against a limit that has not become smaller *)
  Lemma le_threshold x la lb e :
    la <= lb -> (la <> lb -> blame a b e) -> agree (blame a b) (guard (x >? la) e) (guard (x >? lb) e).
  Proof.
    intros Hl Hb. apply agree_guard.
    - rewrite !Z.gtb_lt. intro H. exact (Z.le_lt_trans _ _ _ Hl H).
    - intros H1 H2. apply Hb. intro Heq. rewrite Heq, H2 in H1. discriminate H1.
  Qed.

  Lemma le_depth_guard f : agree (blame a b) (guard (depth_exceeded a f) XDepth) (guard (depth_exceeded b f) XDepth).
  Proof. destruct Hle as (_ & _ & _ & Hd & _). apply le_threshold; [exact Hd|intro H; exact H]. Qed.

  Lemma le_copy_guard f : agree (blame a b) (guard (copy_exceeded a f) XDepth) (guard (copy_exceeded b f) XDepth).
  Proof. destruct Hle as (_ & _ & _ & Hd & _). apply le_threshold; [exact Hd|intro H; exact H]. Qed.

  Lemma le_nest_guard d : agree (blame a b) (nestd_guard Strict (d >? l_nest a)) (nestd_guard Strict (d >? l_nest b)).
  Proof. destruct Hle as (_ & _ & _ & _ & Hn). exact (le_threshold d _ _ XNesting Hn (fun H => H)). Qed.

  Lemma le_chain_guard loaded : agree (blame a b) (nestd_guard Strict (chain_too_deep a loaded)) (nestd_guard Strict (chain_too_deep b loaded)).
  Proof.
    destruct Hle as (_ & _ & _ & _ & Hn).
    assert (Hmono : chain_too_deep b loaded = true -> chain_too_deep a loaded = true).
    { unfold chain_too_deep. rewrite !existsb_exists. intros (d & Hi & Hd). exists d. split; [exact Hi|lia]. }
    apply (agree_guard (blame a b) _ _ XNesting); [exact Hmono|].
    intros H1 H2 Heq. unfold chain_too_deep in *. rewrite Heq in H1. congruence.
  Qed.

  Theorem sim_run chain main glob sizes :
    match run_prog v Strict a chain main glob sizes with
    | LOk s => run_prog v Strict b chain main glob sizes = LOk s
    | LErr e s => run_prog v Strict b chain main glob sizes = LErr e s \/ blame a b e
    | LFuel => run_prog v Strict b chain main glob sizes = LFuel
    end.
  Proof.
    destruct (run_agree (blame a b) v Strict Strict a b le_write le_assign le_loop_guard le_depth_guard le_copy_guard
                le_nest_guard le_chain_guard (agree_handle_strict _) (agree_handle_out_strict _) chain main glob sizes) as [->|Hx].
    - destruct (run_prog v Strict a chain main glob sizes); [reflexivity|left; reflexivity|reflexivity].
    - destruct (run_prog v Strict a chain main glob sizes); [destruct Hx|right; exact Hx|destruct Hx].
  Qed.
End Sim.

(* ------------------------------------------------------------------ (e) no false alarms of the loop limit *)
(* not an instance of run_agree: the two loop checks agree only under linv and the static bound, so A_loop fails *)
Definition no_error (e : lexn) : Prop := False.

Lemma agree_no_error m m' : agree no_error m m' -> forall s, m' s = m s.
Proof. intros H s. destruct (H s) as [E|Hx]; [exact E|]. destruct (excused_err _ _ Hx) as (e & s1 & _ & []). Qed.

Lemma agree_handle_same md m m' : agree no_error m m' -> agree no_error (handle md m) (handle md m').
Proof. intros H s. unfold handle. rewrite (agree_no_error m m' H s). left. reflexivity. Qed.

Lemma agree_handle_out_same md m m' : agree no_error m m' -> agree no_error (handle_out md m) (handle_out md m').
Proof. intros H s. unfold handle_out. rewrite (agree_no_error m m' H s). left. reflexivity. Qed.

(* if no reached nest multiplies to more than L, the loop limit L changes nothing at all: the run is the run
   without a loop limit (same result, same error, same fuel exhaustion).  The only check on which the two
   configurations differ is the loop limit's, and under linv it compares L with the true product. *)
Section NoFalseAlarm.
  Variables (v : variant) (md : mode) (a : limits) (L : N).
  Hypothesis Hv : is_repaired v.
  Hypothesis HL : l_loop a = Some L.
  Let b := with_loop a None.

  Lemma loop_guard_passes f n : linv L f -> (f_tp f * n <= L)%N -> loop_exceeded v a f n = false.
  Proof.
    intros (Hb & _) Hn. unfold loop_exceeded. rewrite (loop_limit_repaired v a Hv), HL.
    replace (n * f_carry f)%N with (f_carry f * n)%N by lia. rewrite fold_mul_scale. fold (bk f). rewrite Hb. lia.
  Qed.
  Lemma loop_guard_off f n : loop_exceeded v b f n = false.
  Proof. unfold loop_exceeded. rewrite (loop_limit_repaired v b Hv). reflexivity. Qed.

  Lemma same_loop_guard f n : linv L f -> (f_tp f * n <= L)%N ->
    agree no_error (guard (loop_exceeded v a f n) XLoop) (guard (loop_exceeded v b f n) XLoop).
  Proof. intros HI Hn. rewrite (loop_guard_passes f n HI Hn), loop_guard_off. apply agree_refl. Qed.

  (* what the bound on a repeating construct says: its own product is within L, and so is its block if it runs *)
  Lemma repeat_within tp n m :
    ((if (n =? 0)%N then 0 else N.max (tp * n) m) <= L)%N -> (tp * n <= L)%N /\ ((n =? 0)%N = false -> (m <= L)%N).
  Proof.
    destruct (n =? 0)%N eqn:En; intro Hm; [|split; [lia|intros _; lia]].
    apply N.eqb_eq in En. subst n. split; [lia|discriminate].
  Qed.

  Definition nfP (nd : node) : Prop :=
    forall f, linv L f -> (maxprodS (f_tp f) (supflag f) nd <= L)%N -> agree no_error (exec v md a nd f) (exec v md b nd f).
  Definition nfQ (l : list node) : Prop :=
    forall f, linv L f -> (maxprodS_list (f_tp f) (supflag f) l <= L)%N ->
    agree no_error (exec_list v md a l f) (exec_list v md b l f) /\ agree no_error (run_nodes v md a l f) (run_nodes v md b l f).

  Lemma nf_block body : nfQ body -> forall f, linv L f -> (maxprodS_list (f_tp f) (supflag f) body <= L)%N ->
    agree no_error (block v md a body f) (block v md b body f).
  Proof.
    intros H f HI Hm. unfold block. destruct (blank_list body); [|apply H; assumption].
    apply (agree_fun no_error (fun s0 => in_null (exec_list v md a body (f_freeze f (s_buf s0))))
                              (fun s0 => in_null (exec_list v md b body (f_freeze f (s_buf s0))))).
    intro s0. apply agree_in_null. apply H; [apply linv_freeze; exact HI|exact Hm].
  Qed.

  Lemma nf_buffered body k : nfQ body -> forall f, linv L f -> (maxprodS_list (f_tp f) (supflag f) body <= L)%N ->
    agree no_error (fun s => in_child (block v md a body (f_freeze f (s_buf s))) k s)
         (fun s => in_child (block v md b body (f_freeze f (s_buf s))) k s).
  Proof.
    intros H f HI Hm.
    apply (agree_fun no_error (fun s0 => in_child (block v md a body (f_freeze f (s_buf s0))) k)
                              (fun s0 => in_child (block v md b body (f_freeze f (s_buf s0))) k)).
    intro s0. apply agree_in_child; [|intro val; apply agree_refl].
    apply (nf_block body H); [apply linv_freeze; exact HI|exact Hm].
  Qed.

  Lemma nf_partial body : nfQ body -> forall f, linv L f -> (maxprodS_list (f_tp f) (supflag f) body <= L)%N ->
    agree no_error (partial v md a body f) (partial v md b body f).
  Proof.
    intros H f HI Hm. unfold partial. apply agree_after. apply H; [apply linv_ext; exact HI|exact Hm].
  Qed.

  Theorem nf_exec_list : forall l, nfQ l.
  Proof.
    apply (list_node_ind' nfP nfQ); unfold nfP.
    - (* Text *) intros t f _ _. rewrite !exec_eq. apply agree_refl.
    - (* Echo *) intros x f _ _. rewrite !exec_eq. apply agree_refl.
    - (* Assign *) intros x t f _ _. rewrite !exec_eq. apply agree_refl.
    - (* Capture *) intros x body IH f HI Hm. rewrite maxprodS_eq in Hm. rewrite !exec_eq.
      apply (nf_buffered body (fun val => m_assign v a x val) IH f HI Hm).
    - (* IfChanged *) intros body IH f HI Hm. rewrite maxprodS_eq in Hm. rewrite !exec_eq.
      apply (nf_buffered body (m_ifchanged a) IH f HI Hm).
    - (* For *) intros n body IH f HI Hm. rewrite maxprodS_eq in Hm. rewrite !exec_eq.
      destruct (repeat_within _ _ _ Hm) as [Hn Hb]. destruct (n =? 0)%N eqn:En; [apply agree_refl|].
      apply agree_seq; [apply same_loop_guard; assumption|]. apply agree_after.
      apply agree_iter. intro k.
      apply (nf_block body IH); [|exact (Hb eq_refl)].
      apply (linv_for v a L Hv HL f n HI En). apply loop_guard_passes; assumption.
    - (* Tablerow *) intros n body IH f HI Hm. rewrite maxprodS_eq in Hm. rewrite !exec_eq.
      destruct (repeat_within _ _ _ Hm) as [Hn Hb].
      apply agree_seq; [apply same_loop_guard; assumption|]. apply agree_after.
      apply agree_after. apply agree_seq; [|apply agree_refl].
      apply agree_repeat. intros En k. apply agree_after. apply agree_seq; [|apply agree_refl].
      apply (nf_block body IH); [|exact (Hb En)].
      apply (linv_scale v a L Hv HL (f_ext f) n (linv_ext L f HI) En). apply (loop_guard_passes f n HI Hn).
    - (* Include *) intros body IH f HI Hm. rewrite maxprodS_eq in Hm. rewrite !exec_eq.
      apply agree_after. apply agree_after. apply agree_after.
      apply (nf_partial body IH); [apply linv_ext; exact HI|exact Hm].
    - (* IncludeArr *) intros n body IH f HI Hm. rewrite maxprodS_eq in Hm. rewrite !exec_eq.
      destruct (repeat_within _ _ _ Hm) as [Hn Hb].
      apply agree_after. apply agree_after. apply agree_after.
      apply agree_seq; [apply (same_loop_guard (f_ext f)); [apply linv_ext; exact HI|exact Hn]|].
      apply agree_repeat. intros En k.
      apply (nf_partial body IH); [|exact (Hb En)].
      apply (linv_scale v a L Hv HL (f_ext f) n (linv_ext L f HI) En). apply (loop_guard_passes f n HI Hn).
    - (* Render *) intros body IH f HI Hm. rewrite maxprodS_eq in Hm. rewrite !exec_eq.
      apply agree_after. apply agree_after.
      apply agree_in_ctx. apply (nf_partial body IH); [apply linv_copy; exact HI|exact Hm].
    - (* RenderFor *) intros n body IH f HI Hm. rewrite maxprodS_eq in Hm. rewrite !exec_eq.
      destruct (repeat_within _ _ _ Hm) as [Hn Hb].
      assert (HIc : linv L (f_copy f)) by (apply linv_copy; exact HI).
      apply agree_after. apply agree_after.
      apply agree_seq; [apply (same_loop_guard (f_copy f)); [exact HIc|exact Hn]|].
      assert (Hp : (n =? 0)%N = false ->
                   agree no_error (partial v md a body (f_scale v (f_copy f) n)) (partial v md b body (f_scale v (f_copy f) n))).
      { intro En. apply (nf_partial body IH); [|exact (Hb En)].
        apply (linv_scale v a L Hv HL (f_copy f) n HIc En). apply (loop_guard_passes (f_copy f) n HIc Hn). }
      destruct (v_item v).
      + apply agree_repeat. intros En k. apply agree_in_ctx. exact (Hp En).
      + apply agree_in_ctx. apply agree_repeat. intros En k. exact (Hp En).
    - (* Call *) intros body IH f HI Hm. rewrite maxprodS_eq in Hm. rewrite !exec_eq.
      apply agree_after.
      apply agree_in_ctx. apply (nf_block body IH); [apply linv_call; exact HI|exact Hm].
    - (* Block *) intros body IH f HI Hm. rewrite maxprodS_eq in Hm. rewrite !exec_eq.
      apply agree_after. apply agree_after.
      apply agree_in_blk. apply (nf_block body IH); [apply linv_blk; exact HI|exact Hm].
    - (* BlockD *) intros body IH f HI Hm. rewrite maxprodS_eq in Hm. rewrite !exec_eq.
      apply agree_after. apply agree_after.
      apply (nf_block body IH); [apply linv_sup_set; [apply linv_ext; exact HI|left; reflexivity]|exact Hm].
    - (* Super *) intros body IH f HI Hm. rewrite maxprodS_eq in Hm. rewrite !exec_eq. unfold supflag in Hm.
      destruct (f_sup f) as [| |bf] eqn:Es.
      + apply agree_refl.
      + intro s. apply agree_in_childb_at; [|intro val; apply agree_refl]. apply agree_after.
        apply (nf_block body IH); [apply linv_sup_set; [apply linv_ext; exact HI|right; reflexivity]|exact Hm].
      + intro s. apply agree_in_childb_at; [|intro val; apply agree_refl]. apply agree_in_base. apply agree_after.
        apply (nf_block body IH); [apply linv_ext; apply (linv_base v L Hv f bf HI Es)|exact Hm].
    - (* SuperU *) intros f _ _. rewrite !exec_eq. apply agree_refl.
    - (* nil *) intros f _ _. split; apply agree_refl.
    - (* cons *) intros x r IHx IHr f HI Hm. simpl in Hm. split.
      + rewrite !exec_list_cons. apply agree_seq; [apply IHx; [exact HI|lia]|apply IHr; [exact HI|lia]].
      + rewrite !run_nodes_cons. apply agree_seq; [apply agree_handle_same; apply IHx; [exact HI|lia]|apply IHr; [exact HI|lia]].
  Qed.
End NoFalseAlarm.

(* ------------------------------------------------------------------ (f) the mode only matters once an error is raised *)
Definition any_error (e : lexn) : Prop := True.

(* a render that completes in STRICT mode (no error was raised) completes identically in WARN and LAX mode: the
   strict run stops at the first error, so whatever the other mode does from there is excused *)
Section ModeAgreement.
  Variables (v : variant) (md : mode) (lim : limits).

  Lemma ma_nestd d : agree any_error (nestd_guard Strict d) (nestd_guard md d).
  Proof. intro s. unfold nestd_guard. destruct d; [right; exact Logic.I|left; reflexivity]. Qed.

  Lemma ma_handle m m' : agree any_error m m' -> agree any_error (handle Strict m) (handle md m').
  Proof.
    intros H s. rewrite handle_strict. unfold handle. destruct (H s) as [->|Hx]; [|right; exact Hx].
    destruct (m s) as [s1|e s1|]; [left; reflexivity|right; exact Logic.I|left; reflexivity].
  Qed.

  Lemma ma_handle_out m m' : agree any_error m m' -> agree any_error (handle_out Strict m) (handle_out md m').
  Proof.
    intros H s. rewrite handle_out_strict. unfold handle_out. destruct (H s) as [->|Hx]; [|right; exact Hx].
    destruct (m s) as [s1|e s1|]; [left; reflexivity|right; exact Logic.I|left; reflexivity].
  Qed.
End ModeAgreement.
