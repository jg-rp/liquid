(* LruSpec.v -- the abstract bounded least-recently-used map, written without any list order, and the abstraction
   from the OrderedDict machine of Lru.v (C24 deepening).  Definitions only; the refinement is proved in Props/C24.v
   (C24_refines_bounded_lru, C24_reachable_refines) from the lemmas of LruSpec_Proofs.v.

   Abstract state: a capacity, a finite map  key -> (value, time of last use)  and a clock.  A USE of a key is a
   successful lookup (c[k], c.get) or a store (c[k] = v); membership tests, len and the listings are not uses.
   Every operation advances the clock by one.  The map is a function; two maps are the same when they agree on
   every key (no extensionality axiom is used). *)
From LiquidVerif Require Import Prelude Lru.
From Coq Require Import Sorted.

Definition amap := N -> option (Z * nat).
Definition same (m m' : amap) : Prop := forall k, m' k = m k.

Definition touch (m : amap) (k : N) (v : Z) (c : nat) : amap := fun k' => if N.eqb k' k then Some (v, c) else m k'.
Definition drop (m : amap) (k : N) : amap := fun k' => if N.eqb k' k then None else m k'.

(* the number of keys present *)
Definition card (m : amap) (n : nat) : Prop :=
  exists l, NoDup l /\ length l = n /\ forall k, In k l <-> m k <> None.

(* the least recently used key: its last use is older than that of every other key present *)
Definition oldest (m : amap) (k0 : N) : Prop :=
  exists v0 t0, m k0 = Some (v0, t0) /\ forall k' v' t', k' <> k0 -> m k' = Some (v', t') -> t0 < t'.

(* a listing: every entry once, most recently used first *)
Definition newer (m : amap) (a b : N * Z) : Prop :=
  exists ta tb, m (fst a) = Some (snd a, ta) /\ m (fst b) = Some (snd b, tb) /\ tb < ta.
Definition listing (m : amap) (l : list (N * Z)) : Prop :=
  NoDup (map fst l) /\ (forall k v, In (k, v) l <-> exists t, m k = Some (v, t)) /\ StronglySorted (newer m) l.

Definition present (m : amap) (k : N) : bool := match m k with Some _ => true | None => false end.

(* one operation of a bounded LRU map of capacity cap at clock time c: before-map, operation, after-map, result *)
Inductive lru_step (cap : nat) (m : amap) (c : nat) : op -> amap -> out -> Prop :=
| L_get_hit k v t m' : m k = Some (v, t) -> same (touch m k v c) m' -> lru_step cap m c (Get k) m' (OVal v)
| L_get_miss k m' : m k = None -> same m m' -> lru_step cap m c (Get k) m' OKeyError
| L_getd_hit k d v t m' : m k = Some (v, t) -> same (touch m k v c) m' -> lru_step cap m c (GetD k d) m' (OVal v)
| L_getd_miss k d m' : m k = None -> same m m' -> lru_step cap m c (GetD k d) m' (OVal d)
| L_getn_hit k v t m' : m k = Some (v, t) -> same (touch m k v c) m' -> lru_step cap m c (GetN k) m' (OVal v)
| L_getn_miss k m' : m k = None -> same m m' -> lru_step cap m c (GetN k) m' ONone
  (* a store to a present key replaces the value and is a use: no eviction *)
| L_set_hit k v v0 t m' : m k = Some (v0, t) -> same (touch m k v c) m' -> lru_step cap m c (Set_ k v) m' ODone
  (* a store of a new key with room left *)
| L_set_room k v n m' : m k = None -> card m n -> n < cap -> same (touch m k v c) m' -> lru_step cap m c (Set_ k v) m' ODone
  (* a store of a new key into a full map evicts exactly the least recently used key *)
| L_set_evict k v n k0 m' : m k = None -> card m n -> cap <= n -> oldest m k0 ->
    same (touch (drop m k0) k v c) m' -> lru_step cap m c (Set_ k v) m' ODone
| L_del_hit k m' : m k <> None -> same (drop m k) m' -> lru_step cap m c (Del k) m' ODone
| L_del_miss k m' : m k = None -> same m m' -> lru_step cap m c (Del k) m' OKeyError
  (* not uses: the map, last-use times included, is unchanged *)
| L_contains k m' : same m m' -> lru_step cap m c (Contains k) m' (OBool (present m k))
| L_len n m' : same m m' -> card m n -> lru_step cap m c Len m' (OLen n)
| L_items l m' : same m m' -> listing m l -> lru_step cap m c Items m' (OItems l)
| L_keys l m' : same m m' -> listing m l -> lru_step cap m c Keys m' (OKeys (map fst l))
| L_iter l m' : same m m' -> listing m l -> lru_step cap m c Iter m' (OKeys (map fst l))
| L_values l m' : same m m' -> listing m l -> lru_step cap m c Values m' (OVals (map snd l)).

(* ---- the abstraction: what the stamped OrderedDict machine denotes ---- *)
Definition amap_of (g : gcache) : amap := fun k => glookup k (gitems g).

(* the invariant of reachable states: one entry per key, entries in order of last use, every stamp in the past *)
Definition RInv (g : gcache) : Prop :=
  NoDup (map fst (erase_items (gitems g))) /\ StronglySorted lt (map snd (gitems g)) /\
  Forall (fun t => t < clock g) (map snd (gitems g)) /\
  1 <= gcap g /\ length (gitems g) <= gcap g.

(* operations that are not uses and change nothing *)
Definition readonly (o : op) : bool :=
  match o with Contains _ | Len | Keys | Values | Items | Iter => true | _ => false end.

(* number of ListNext actions of a thread *)
Fixpoint nexts (tid : nat) (acts : list action) : nat :=
  match acts with
  | [] => 0
  | ListNext t :: a => if Nat.eqb t tid then S (nexts tid a) else nexts tid a
  | _ :: a => nexts tid a
  end.
Fixpoint no_begin (tid : nat) (acts : list action) : bool :=
  match acts with
  | [] => true
  | ListBegin t :: a => negb (Nat.eqb t tid) && no_begin tid a
  | _ :: a => no_begin tid a
  end.
