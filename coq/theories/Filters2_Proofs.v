(* C25, second part: case and whitespace filters, strip_newlines, sort_natural, map, default.
   The number filters are in Filters2_Num_Proofs.v. *)
From LiquidVerif Require Import Prelude PyPrims Filters Filters_Proofs Filters2.
From Coq Require Import ZifyBool Sorted Permutation.

Definition is_lower (c : N) : Prop := (97 <= c <= 122)%N.
Definition is_upper (c : N) : Prop := (65 <= c <= 90)%N.

(* a lower-case letter moves to the upper-case letter 32 places below, every other character stays *)
Theorem up_char c : (is_lower c -> up c = (c - 32)%N /\ is_upper (up c)) /\ (~ is_lower c -> up c = c).
Proof. unfold is_lower, is_upper, up. split; intro H; destruct ((97 <=? c) && (c <=? 122))%N eqn:E; lia. Qed.

Theorem low_char c : (is_upper c -> low c = (c + 32)%N /\ is_lower (low c)) /\ (~ is_upper c -> low c = c).
Proof. unfold is_lower, is_upper, low. split; intro H; destruct ((65 <=? c) && (c <=? 90))%N eqn:E; lia. Qed.

Lemma up_not_lower c : ~ is_lower (up c).
Proof. unfold is_lower, up. destruct ((97 <=? c) && (c <=? 122))%N eqn:E; lia. Qed.
Lemma low_not_upper c : ~ is_upper (low c).
Proof. unfold is_upper, low. destruct ((65 <=? c) && (c <=? 90))%N eqn:E; lia. Qed.

Lemma up_up c : up (up c) = up c.
Proof. destruct (up_char (up c)) as [_ H]. apply H, up_not_lower. Qed.
Lemma low_low c : low (low c) = low c.
Proof. destruct (low_char (low c)) as [_ H]. apply H, low_not_upper. Qed.
Lemma low_up c : low (up c) = low c.
Proof. unfold low, up. destruct ((97 <=? c) && (c <=? 122))%N eqn:E.
  - destruct ((65 <=? c - 32) && (c - 32 <=? 90))%N eqn:E2; destruct ((65 <=? c) && (c <=? 90))%N eqn:E3; lia.
  - reflexivity. Qed.
Lemma up_low c : up (low c) = up c.
Proof. unfold low, up. destruct ((65 <=? c) && (c <=? 90))%N eqn:E.
  - destruct ((97 <=? c + 32) && (c + 32 <=? 122))%N eqn:E2; destruct ((97 <=? c) && (c <=? 122))%N eqn:E3; lia.
  - reflexivity. Qed.

(* upcase and downcase are the two instances: [f] is applied character by character, leaves no character in [P], is
   idempotent, and [g] does not see it *)
Lemma charwise_contract (f g : N -> N) (P : N -> Prop) :
  f 0%N = 0%N -> (forall c, ~ P (f c)) -> (forall c, f (f c) = f c) -> (forall c, g (f c) = g c) ->
  forall s : str,
  length (map f s) = length s /\
  (forall i, nth i (map f s) 0%N = f (nth i s 0%N)) /\
  Forall (fun c => ~ P c) (map f s) /\
  map f (map f s) = map f s /\
  map g (map f s) = map g s.
Proof.
  intros H0 HP Hff Hgf s. split; [apply map_length|]. split; [|split; [|split]].
  - intro i. pose proof (map_nth f s 0%N i) as H. rewrite H0 in H. exact H.
  - apply Forall_forall. intros c Hc. apply in_map_iff in Hc. destruct Hc as [d [<- _]]. apply HP.
  - rewrite map_map. apply map_ext, Hff.
  - rewrite map_map. apply map_ext, Hgf.
Qed.

Definition all_space (s : str) : Prop := Forall (fun c => is_space c = true) s.
Definition starts_nonspace (s : str) : Prop := match s with c :: _ => is_space c = false | [] => True end.
Definition ends_nonspace (s : str) : Prop := starts_nonspace (rev s).

(* lstrip removes exactly the longest leading run of whitespace *)
Theorem lstrip_contract (s : str) :
  exists a, s = a ++ lstrip_s s /\ all_space a /\ starts_nonspace (lstrip_s s).
Proof.
  induction s as [|c r IH].
  - exists []. repeat split; constructor.
  - cbn [lstrip_s]. destruct (is_space c) eqn:E.
    + destruct IH as [a [H1 [H2 H3]]]. exists (c :: a). split; [cbn; rewrite <- H1; reflexivity|].
      split; [constructor; assumption|exact H3].
    + exists []. split; [reflexivity|]. split; [constructor|exact E].
Qed.

Lemma all_space_rev a : all_space a -> all_space (rev a).
Proof. unfold all_space. rewrite !Forall_forall. intros H c Hc. apply H. apply in_rev. exact Hc. Qed.

Theorem rstrip_contract (s : str) :
  exists b, s = rstrip_s s ++ b /\ all_space b /\ ends_nonspace (rstrip_s s).
Proof.
  unfold rstrip_s, ends_nonspace. destruct (lstrip_contract (rev s)) as [a [H1 [H2 H3]]].
  exists (rev a). split; [|split].
  - rewrite <- rev_app_distr, <- H1, rev_involutive. reflexivity.
  - apply all_space_rev, H2.
  - rewrite rev_involutive. exact H3.
Qed.

(* the documented behaviour, as a relation: every LF goes, together with a CR directly in front of it; nothing else *)
Inductive SN : str -> str -> Prop :=
| SN_nil : SN [] []
| SN_lf r o : SN r o -> SN (10%N :: r) o
| SN_crlf r o : SN r o -> SN (13%N :: 10%N :: r) o
| SN_keep c r o : c <> 10%N -> (c = 13%N -> hd 0%N r <> 10%N) -> SN r o -> SN (c :: r) (c :: o).

(* strip_newlines_s calls itself two characters further after CR LF: induction on a bound of the length *)
Lemma strip_newlines_SN_len : forall n s, length s <= n -> SN s (strip_newlines_s s).
Proof.
  induction n as [|n IH]; intros s Hl.
  - destruct s; [constructor|cbn in Hl; lia].
  - destruct s as [|c r]; [constructor|]. cbn [strip_newlines_s]. cbn in Hl.
    destruct (N.eqb_spec c 10) as [->|Hlf]; [apply SN_lf, IH; lia|].
    destruct (N.eqb_spec c 13) as [->|Hcr]; [|apply SN_keep; [exact Hlf|intro; contradiction|apply IH; lia]].
    destruct r as [|d r']; [apply SN_keep; [lia|cbn; lia|constructor]|].
    destruct (N.eqb_spec d 10) as [->|Hd].
    + apply SN_crlf, IH. cbn in Hl. lia.
    + apply SN_keep; [lia|intros _; exact Hd|apply IH; lia].
Qed.

Theorem strip_newlines_sound s : SN s (strip_newlines_s s).
Proof. apply (strip_newlines_SN_len (length s)). lia. Qed.

Theorem SN_functional s o : SN s o -> forall o', SN s o' -> o = o'.
Proof.
  induction 1 as [|r o H IH|r o H IH|c r o Hc Hcr H IH]; intros o' H'.
  - inversion H'. reflexivity.
  - inversion H' as [|r1 o1 H1|r1 o1 H1|c1 r1 o1 Hc1 Hcr1 H1]; subst; [apply IH; assumption|congruence].
  - inversion H' as [|r1 o1 H1|r1 o1 H1|c1 r1 o1 Hc1 Hcr1 H1]; subst; [apply IH; assumption|].
    exfalso. apply Hcr1; reflexivity.
  - inversion H' as [|r1 o1 H1|r1 o1 H1|c1 r1 o1 Hc1 Hcr1 H1]; subst.
    + congruence.
    + exfalso. apply Hcr; reflexivity.
    + f_equal. apply IH. assumption.
Qed.

Lemma SN_no_lf s o : SN s o -> ~ In 10%N o.
Proof.
  induction 1 as [|r o H IH|r o H IH|c r o Hc Hcr H IH]; cbn; try assumption; [tauto|].
  intros [E|E]; [apply Hc; exact E|apply IH; exact E].
Qed.

Lemma SN_id s : ~ In 10%N s -> SN s s.
Proof.
  induction s as [|c r IH]; intro H; [constructor|].
  apply SN_keep.
  - intro E. apply H. left. exact E.
  - intros _. destruct r as [|d r']; cbn; [lia|]. intro E. apply H. right. left. exact E.
  - apply IH. intro E. apply H. right. exact E.
Qed.

Lemma SN_filter s o : SN s o ->
  filter (fun c => negb (c =? 10)%N && negb (c =? 13)%N) o = filter (fun c => negb (c =? 10)%N && negb (c =? 13)%N) s.
Proof.
  induction 1 as [|r o H IH|r o H IH|c r o Hc Hcr H IH].
  - reflexivity.
  - exact IH.
  - exact IH.
  - cbn [filter]. destruct (N.eqb_spec c 10); [contradiction|]. cbn [negb andb].
    destruct (N.eqb_spec c 13); cbn [negb]; [exact IH|]. rewrite IH. reflexivity.
Qed.

(* the function is the relation *)
Lemma strip_newlines_unique s o : SN s o <-> o = strip_newlines_s s.
Proof.
  split; [|intros ->; apply strip_newlines_sound].
  intro H. exact (SN_functional s o H _ (strip_newlines_sound s)).
Qed.

Lemma strip_newlines_no_lf s : ~ In 10%N (strip_newlines_s s).
Proof. exact (SN_no_lf _ _ (strip_newlines_sound s)). Qed.

Lemma strip_newlines_id s : ~ In 10%N s -> strip_newlines_s s = s.
Proof. intro H. symmetry. apply strip_newlines_unique, SN_id, H. Qed.

(* the comparison key of an item: the lower-cased text of the item *)
Definition lkey (v : val) : str := match py_str v with Some s => map low s | None => [] end.
Definition natural_key (v : val) : skey := KStr (lkey v).

(* on a flat array of items that have a text, sort_natural is the stable sort by that key *)
Lemma sort_natural_eq l :
  (forall x, In x l -> match x with VList _ => False | _ => True end) ->
  (forall x, In x l -> py_str x <> None) ->
  f_sort_natural (VList l) = FOk (VList (sort_by natural_key l)).
Proof.
  intros Hflat Hp. unfold f_sort_natural. rewrite (as_sequence_flat l Hflat).
  rewrite (all_some_map _ (fun y => (natural_key y, y))), sort_decorated, map_id; [reflexivity|].
  intros x Hx. specialize (Hp x Hx). unfold natural_key, lkey. destruct (py_str x); [reflexivity|contradiction].
Qed.

(* two items have the same key exactly when their lower-cased texts are equal *)
Definition same_key (k : str) (x : val) : bool := str_leb (lkey x) k && str_leb k (lkey x).

Lemma same_key_eq k x : same_key k x = true <-> lkey x = k.
Proof.
  unfold same_key. split.
  - intro H. apply andb_true_iff in H. destruct H. apply str_leb_antisym; assumption.
  - intros <-. rewrite str_leb_refl. reflexivity.
Qed.

Definition prop_or_nil (k : str) (d : list (str * val)) : val :=
  match alookup k d with Some x => x | None => VNil end.

(* hashes at the front give their property; what the items behind them give decides the rest *)
Lemma map_items_hashes k ds rest :
  map_items k (map VDict ds ++ rest) =
  match map_items k rest with MOk ys => MOk (map (prop_or_nil k) ds ++ ys) | o => o end.
Proof.
  induction ds as [|d ds IH]; cbn [map app map_items map_item]; [destruct (map_items k rest); reflexivity|].
  rewrite IH. destruct (map_items k rest); reflexivity.
Qed.

(* hashes and a following item that is not an array stay in place when the input is flattened *)
Lemma as_sequence_hashes_then ds x rest : match x with VList _ => False | _ => True end ->
  exists rest', as_sequence (VList (map VDict ds ++ x :: rest)) = Some (map VDict ds ++ x :: rest').
Proof.
  intro Hx. cbn [as_sequence]. rewrite flat_map_app. cbn [flat_map].
  rewrite flat_map_flat by (intros y Hy; apply in_map_iff in Hy; destruct Hy as [d [<- _]]; exact I).
  eexists. destruct x; try contradiction; reflexivity.
Qed.

(* the values for which the default is used *)
Definition blank (v : val) (allow_false : bool) : bool :=
  match v with
  | VNil | VUndef => true
  | VBool false => negb allow_false
  | VStr [] | VList [] | VDict [] => true
  | _ => false
  end.
