(* Every well-grouped condition text parses to the tree it denotes; hence the repaired serialiser round-trips. *)
From LiquidVerif Require Import Prelude PyPrims Cond CondPrint Cond_Proofs CondParen.

Fixpoint psize (q : pexpr) : nat :=
  match q with
  | PLit _ | PVar _ => 1
  | PNot a | PParen a => S (psize a)
  | PAnd a b | POr a b | PCmp _ a b => S (psize a + psize b)
  end.

(* [fitsP p q]: read at binding power p, the loop does not stop inside q: its top operator binds at least as tightly as p.
   [okrestP q p rest]: it does stop at [rest]; after `not`, whose operand is read at the lowest power, only a token that is
   no infix operator at all stops it. *)
Definition fitsP (p : nat) (q : pexpr) : Prop :=
  match q with
  | PAnd _ _ | POr _ _ => p <= 2
  | PCmp op _ _ => p <= prec (TOp op)
  | _ => True
  end.

Definition okrestP (q : pexpr) (p : nat) (rest : list tok) : Prop :=
  stops p rest /\ match q with PNot _ => stops1 rest | _ => True end.

Lemma psize_pos q : 1 <= psize q.
Proof. destruct q; cbn; lia. Qed.

(* binding powers 1 and 2 admit every tree *)
Lemma fitsP_low p q : p <= 2 -> fitsP p q.
Proof. intro Hp. destruct q; cbn [fitsP]; try exact I; try exact Hp. pose proof (prec_op op). lia. Qed.

Lemma okrestP_stops1 q p rest : stops1 rest -> okrestP q p rest.
Proof. intro H. split; [apply stops1_any, H|]. destruct q; try exact I. exact H. Qed.

Section Step.
  Variable n : nat.
  Hypothesis IH : forall q, psize q <= n -> wg q = true -> forall fuel p rest,
    4 * psize q <= fuel -> fitsP p q -> okrestP q p rest ->
    pp flags_on fuel p (toks q ++ rest) = Ok (erase q, rest).

  (* the prefix part reads an atom or a parenthesised group whole *)
  Lemma prim_atomic x r f : patomic x = true -> wg x = true -> psize x <= S n -> 4 * psize x <= S f ->
    primary (pp flags_on f) flags_on (toks x ++ r) = Ok (erase x, r).
  Proof.
    intros Ha Hw Hs Hf. destruct x as [v|y| | | | |a]; try discriminate Ha; [reflexivity|reflexivity|].
    cbn [psize] in Hs, Hf. cbn [toks erase app]. rewrite <- app_assoc. cbn [app primary flags_on allow_parens].
    rewrite (IH a ltac:(lia) Hw f 1 (TRParen :: r) ltac:(lia) (fitsP_low 1 a ltac:(lia))); [reflexivity|].
    apply okrestP_stops1. reflexivity.
  Qed.

  Lemma pp_atomic x q r fuel : patomic x = true -> wg x = true -> psize x <= S n -> 4 * psize x <= fuel ->
    stops q r -> pp flags_on fuel q (toks x ++ r) = Ok (erase x, r).
  Proof.
    intros Ha Hw Hs Hf Hst. pose proof (psize_pos x). destruct fuel as [|[|g]]; [lia|lia|]. rewrite pp_S.
    rewrite (prim_atomic x r (S g) Ha Hw Hs Hf). apply ploop_stop, Hst.
  Qed.

  (* with the left operand read, the loop reads `op y` of a comparison: y is an atom or a group *)
  Lemma cmp_step op y left r p g : patomic y = true -> wg y = true -> psize y <= S n -> 4 * psize y <= S g ->
    p <= prec (TOp op) -> stops (prec (TOp op)) r ->
    ploop (pp flags_on (S g)) p (S g) left (TOp op :: toks y ++ r) = ploop (pp flags_on (S g)) p g (BCmp op left (erase y)) r.
  Proof.
    intros Ha Hw Hs Hf Hp Hst. apply (ploop_step _ p g left (TOp op) _ (erase y) r); [exact Hp| |reflexivity].
    apply pp_atomic; assumption.
  Qed.

  (* `a t b` where t is `and` or `or`: a is an atom, a group or a comparison; b is read at the binding power of t *)
  Lemma bin_case t mk a b : prec t = 2 -> (forall l r, mk_infix t l r = Some (mk l r)) ->
    pleft_ok a = true -> wg a = true -> wg b = true -> psize a + psize b <= n ->
    forall fuel p rest, 4 * S (psize a + psize b) <= fuel -> p <= 2 -> stops p rest ->
    pp flags_on fuel p (toks a ++ t :: toks b ++ rest) = Ok (mk (erase a) (erase b), rest).
  Proof.
    intros Hprec Hmk Hl Hwa Hwb Hs fuel p rest Hf Hp Hst.
    pose proof (psize_pos a) as Pa. pose proof (psize_pos b) as Pb.
    destruct fuel as [|[|g]]; [lia|lia|]. rewrite pp_S.
    assert (Hb : pp flags_on (S g) (prec t) (toks b ++ rest) = Ok (erase b, rest)).
    { rewrite Hprec. apply IH; [lia|exact Hwb|lia|apply fitsP_low, le_n|].
      split; [apply (stops_le p); [exact Hst|lia]|]. destruct b; try exact I. apply (stops_low p); assumption. }
    assert (Ht : forall left g', ploop (pp flags_on (S g)) p (S (S g')) left (t :: toks b ++ rest) = Ok (mk left (erase b), rest)).
    { intros left g'. rewrite (ploop_step _ p (S g') left t _ (erase b) rest (mk left (erase b)) ltac:(lia) Hb (Hmk _ _)).
      apply ploop_stop, Hst. }
    destruct (patomic a) eqn:Hat.
    - rewrite (prim_atomic a _ (S g) Hat Hwa ltac:(lia) ltac:(lia)). cbn [bind fst snd].
      destruct g as [|g']; [lia|]. apply Ht.
    - destruct a as [| | | | |op x y|]; try discriminate.
      cbn [wg] in Hwa. rewrite !andb_true_iff in Hwa. destruct Hwa as [[[Hax Hay] Hwx] Hwy].
      cbn [psize] in Hs, Hf. cbn [toks erase]. rewrite <- app_assoc. cbn [app].
      rewrite (prim_atomic x _ (S g) Hax Hwx ltac:(lia) ltac:(lia)). cbn [bind fst snd].
      rewrite (cmp_step op y (erase x) _ p g Hay Hwy ltac:(lia) ltac:(lia)).
      + destruct g as [|[|g']]; [lia|lia|]. apply Ht.
      + pose proof (prec_op op). lia.
      + left. pose proof (prec_op op). lia.
  Qed.
End Step.

(* fuel 4 per node: pp spends one unit on itself, one per turn of its loop (at most two: `x op y`, then `and b`), one to
   see the loop stop, and reads its operands with one unit less; Cond.parse gives 4 * length ts + 4 *)
Lemma parse_toks_body : forall n q, psize q <= n -> wg q = true -> forall fuel p rest,
  4 * psize q <= fuel -> fitsP p q -> okrestP q p rest ->
  pp flags_on fuel p (toks q ++ rest) = Ok (erase q, rest).
Proof.
  induction n as [|n IHn]; intros q Hs Hw; [pose proof (psize_pos q); lia|].
  intros fuel p rest Hf Hfit [Hst Hnot].
  destruct q as [v|x|a|a b|a b|op a b|a]; cbn [psize] in Hs, Hf; cbn [wg] in Hw.
  - apply (pp_atomic n IHn (PLit v)); [reflexivity|reflexivity|cbn; lia|exact Hf|exact Hst].
  - apply (pp_atomic n IHn (PVar x)); [reflexivity|reflexivity|cbn; lia|exact Hf|exact Hst].
  - (* not: the operand is read at the lowest binding power, so it extends as far as the rest allows *)
    pose proof (psize_pos a). destruct fuel as [|[|g]]; [lia|lia|]. rewrite pp_S. cbn [toks erase app primary flags_on allow_not].
    rewrite (IHn a ltac:(lia) Hw (S g) 1 rest ltac:(lia) (fitsP_low 1 a ltac:(lia)) (okrestP_stops1 a 1 rest Hnot)).
    apply ploop_stop, Hst.
  - rewrite !andb_true_iff in Hw. destruct Hw as [[Hl Hwa] Hwb]. cbn [toks erase]. rewrite <- app_assoc.
    apply (bin_case n IHn TAnd BAnd a b); try reflexivity; try assumption; lia.
  - rewrite !andb_true_iff in Hw. destruct Hw as [[Hl Hwa] Hwb]. cbn [toks erase]. rewrite <- app_assoc.
    apply (bin_case n IHn TOr BOr a b); try reflexivity; try assumption; lia.
  - rewrite !andb_true_iff in Hw. destruct Hw as [[[Haa Hab] Hwa] Hwb].
    pose proof (psize_pos a). pose proof (psize_pos b).
    cbn [toks erase]. rewrite <- app_assoc. cbn [app].
    destruct fuel as [|[|[|g]]]; [lia|lia|lia|]. rewrite pp_S.
    rewrite (prim_atomic n IHn a _ (S (S g)) Haa Hwa ltac:(lia) ltac:(lia)). cbn [bind fst snd].
    rewrite (cmp_step n IHn op b (erase a) rest p (S g) Hab Hwb ltac:(lia) ltac:(lia) Hfit (stops_le p _ rest Hst Hfit)).
    apply ploop_stop, Hst.
  - apply (pp_atomic n IHn (PParen a)); [reflexivity|exact Hw|exact Hs|exact Hf|exact Hst].
Qed.

(* read at binding power p, a well-grouped text is consumed whole, and nothing of what follows it *)
Corollary parse_toks q : wg q = true -> forall fuel p rest,
  4 * psize q <= fuel -> fitsP p q -> okrestP q p rest ->
  pp flags_on fuel p (toks q ++ rest) = Ok (erase q, rest).
Proof. apply (parse_toks_body (psize q)), le_n. Qed.

Lemma toks_length q : psize q <= length (toks q).
Proof.
  induction q as [v|x|a IHa|a IHa b IHb|a IHa b IHb|op a IHa b IHb|a IHa]; cbn [toks psize length]; rewrite ?app_length; cbn [length];
    rewrite ?app_length; cbn [length]; lia.
Qed.

(* every well-grouped condition text parses to the tree it denotes -- whatever redundant parentheses it contains *)
Theorem parse_wellgrouped q : wg q = true -> parse flags_on (toks q) = Ok (erase q).
Proof.
  intro Hw. unfold parse. pose proof (toks_length q) as Hl.
  rewrite <- (app_nil_r (toks q)) at 2.
  rewrite (parse_toks q Hw (4 * length (toks q) + 4) 1 [] ltac:(lia) (fitsP_low 1 q ltac:(lia)) (okrestP_stops1 q 1 [] I)).
  reflexivity.
Qed.

(* ---- the repaired serialiser ---- *)
Lemma erase_pwrap b q : erase (pwrap b q) = erase q. Proof. destruct b; reflexivity. Qed.
Lemma wg_pwrap b q : wg (pwrap b q) = wg q. Proof. destruct b; reflexivity. Qed.

Lemma pq2_erase e : forall p l, erase (pq2 p l e) = e.
Proof.
  induction e as [v|x|a IHa|a IHa b IHb|a IHa b IHb|op a IHa b IHb]; intros p l; cbn [pq2]; rewrite ?erase_pwrap; cbn [erase];
    rewrite ?erase_pwrap, ?IHa, ?IHb; reflexivity.
Qed.

Lemma pq2_left_ok e p : pleft_ok (pq2 p true e) = true.
Proof. destruct e; cbn [pq2]; rewrite ?orb_true_r; reflexivity. Qed.

Lemma pq2_operand_atomic e : patomic (pwrap (compound e) (pq2 0 false e)) = true.
Proof. destruct e; reflexivity. Qed.

Lemma pq2_wg e : forall p l, wg (pq2 p l e) = true.
Proof.
  induction e as [v|x|a IHa|a IHa b IHb|a IHa b IHb|op a IHa b IHb]; intros p l; cbn [pq2]; rewrite ?wg_pwrap; cbn [wg].
  - reflexivity.
  - reflexivity.
  - apply IHa.
  - rewrite pq2_left_ok, IHa, IHb. reflexivity.
  - rewrite pq2_left_ok, IHa, IHb. reflexivity.
  - rewrite !pq2_operand_atomic, !wg_pwrap, IHa, IHb. reflexivity.
Qed.

(* C04: for EVERY condition tree, the text str() produces parses back to the same tree ... *)
Theorem print2_roundtrip e : parse flags_on (print2 e) = Ok e.
Proof. unfold print2. rewrite (parse_wellgrouped _ (pq2_wg e 0 false)), pq2_erase. reflexivity. Qed.

(* the minimal printer of CondPrint.v is another instance *)
Lemma pq_toks c e : toks (pq c e) = pr c e.
Proof.
  revert c. induction e as [v|x|a IHa|a IHa b IHb|a IHa b IHb|op a IHa b IHb]; intro c; cbn [pq pr];
    destruct (wraps c _); cbn [pwrap wrap toks]; rewrite ?IHa, ?IHb; reflexivity.
Qed.

Lemma pq_erase e : forall c, erase (pq c e) = e.
Proof.
  induction e as [v|x|a IHa|a IHa b IHb|a IHa b IHb|op a IHa b IHb]; intro c; cbn [pq]; rewrite erase_pwrap; cbn [erase];
    rewrite ?IHa, ?IHb; reflexivity.
Qed.

Lemma pq_left_ok e : pleft_ok (pq CLeft e) = true.
Proof. destruct e; reflexivity. Qed.

Lemma pq_operand_atomic e : patomic (pq COperand e) = true.
Proof. destruct e; reflexivity. Qed.

Lemma pq_wg e : forall c, wg (pq c e) = true.
Proof.
  induction e as [v|x|a IHa|a IHa b IHb|a IHa b IHb|op a IHa b IHb]; intro c; cbn [pq]; rewrite wg_pwrap; cbn [wg].
  - reflexivity.
  - reflexivity.
  - apply IHa.
  - rewrite pq_left_ok, IHa, IHb. reflexivity.
  - rewrite pq_left_ok, IHa, IHb. reflexivity.
  - rewrite !pq_operand_atomic, IHa, IHb. reflexivity.
Qed.

From Coq Require Import String.
Local Open Scope string_scope. Local Open Scope list_scope.

(* the serialiser before the repair: `(not a) and b` comes back as `not (a and b)` ... *)
Theorem print_old_not_refuted :
  let e := BAnd (BNot (BVar (lit "a"))) (BVar (lit "b")) in
  let env := [(lit "a", VBool true); (lit "b", VBool false)] in
  exists e', parse flags_on (print_old e) = Ok e' /\ eval_cond env e' <> eval_cond env e.
Proof. eexists. split; [vm_compute; reflexivity|]. vm_compute. discriminate. Qed.

(* ... and a compound comparison operand lost its parentheses: `a == (b and c)` came back as `(a == b) and c` *)
Theorem print_old_operand_refuted :
  let e := BCmp OEq (BVar (lit "a")) (BAnd (BVar (lit "b")) (BVar (lit "c"))) in
  let env := [(lit "a", VBool false); (lit "b", VBool true); (lit "c", VNil)] in
  exists e', parse flags_on (print_old e) = Ok e' /\ eval_cond env e' <> eval_cond env e.
Proof. eexists. split; [vm_compute; reflexivity|]. vm_compute. discriminate. Qed.
