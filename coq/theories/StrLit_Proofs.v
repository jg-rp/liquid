(* String literals: the lexer reads a serialised literal back as its value. *)
From LiquidVerif Require Import Prelude StrLit.

Lemma until_app q s rest : has q s = false -> until q (s ++ q :: rest) = Some (s, rest).
Proof.
  induction s as [|c s IH]; cbn [app until has existsb]; intro H.
  - rewrite N.eqb_refl. reflexivity.
  - apply orb_false_iff in H. destruct H as [Hc Hs]. rewrite N.eqb_sym in Hc. rewrite Hc, (IH Hs). reflexivity.
Qed.

(* C04: a string value that does not contain both kinds of quote (no literal can) is serialised to a literal that the
   lexer reads back as exactly that value -- backslashes, newlines and the other quote included *)
Theorem quote_scan s rest : has SQ s && has DQ s = false -> scan_string (quote_string s ++ rest) = Some (s, rest).
Proof.
  intro H. unfold quote_string. destruct (has SQ s) eqn:Hs.
  - cbn [andb] in H. cbn [app scan_string]. rewrite <- app_assoc. cbn [app]. replace (N.eqb DQ SQ || N.eqb DQ DQ) with true by reflexivity.
    apply until_app, H.
  - cbn [app scan_string]. rewrite <- app_assoc. cbn [app]. replace (N.eqb SQ SQ || N.eqb SQ DQ) with true by reflexivity.
    apply until_app, Hs.
Qed.

Corollary requote_fixpoint c : has SQ (sl_value c) && has DQ (sl_value c) = false -> run_requote c = Some (run_quote c).
Proof. intro H. unfold run_requote, run_quote. rewrite <- (app_nil_r (quote_string _)) at 1. rewrite (quote_scan _ [] H). reflexivity. Qed.
