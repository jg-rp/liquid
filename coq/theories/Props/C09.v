(* C09 -- Parsing and rendering always terminate within the stack.  Property theorems only.
   Models: Recover.v (the parser with its recovery paths), TagTree.v (the generic block parser), Terminate.v (rendering of
   recursive partials under the context-depth bookkeeping, the extends chain walk, Python frames per construct). *)
From LiquidVerif Require Import Prelude Recover Recover_Proofs TagTree Terminate Terminate_Proofs.

(* parsing: every loop of the parser consumes a token; with one unit of fuel more than there are tokens (those inside liquid tags included) the model never
   runs out, in any mode and for any block nesting limit (unterminated and unbalanced blocks included) *)
Theorem C09_parse_progress : forall m lim f ts, S (tsize ts) <= f -> parse_fuel m lim f ts <> OutOfFuel.
Proof. exact parse_progress. Qed.
Print Assumptions C09_parse_progress.

(* the same for the generic block parser, for every tag register *)
Theorem C09_block_parser_progress : forall kind_of f stops ts, List.length ts < f -> parse_until kind_of f stops ts <> OutOfFuel.
Proof.
  intros kind_of f stops ts H E. pose proof (parse_until_good kind_of f stops ts H) as Hg. rewrite E in Hg. exact Hg.
Qed.
Print Assumptions C09_block_parser_progress.

Theorem C09_template_parser_total : forall kind_of ts, parse_template kind_of ts <> OutOfFuel.
Proof.
  intros kind_of ts. unfold parse_template. pose proof (parse_until_good kind_of (S (List.length ts)) [] ts ltac:(lia)) as Hg.
  destruct (parse_until kind_of (S (List.length ts)) [] ts) as [[a b]|e|]; simpl in Hg |- *; [|discriminate|contradiction].
  destruct b; discriminate.
Qed.
Print Assumptions C09_template_parser_total.

(* rendering: for EVERY loader of templates built from text, blocks, for loops, include, render and macro calls, every
   context depth limit, strict or lax mode, the recursion depth of the render never exceeds fuel_bound (a product of the
   limit squared and the deepest block nesting): recursion through partials is always cut off *)
Theorem C09_render_bounded : forall lax lim c ld name, render_template lax lim c ld (fuel_bound lim ld) name <> None.
Proof. exact render_bounded. Qed.
Print Assumptions C09_render_bounded.

(* a template that includes or renders itself -- once or several times, from inside any number of nested blocks -- ends,
   in strict mode, in ContextDepthError, for every limit *)
Theorem C09_recursion_cut : forall lim c k d copies,
  exists o, render_template false lim c (self_family k d (S copies)) (fuel_bound lim (self_family k d (S copies))) 0 = Some o
            /\ raised o = Some EContextDepth.
Proof.
  intros lim c k d copies. set (ld := self_family k d (S copies)).
  pose proof (render_bounded false lim c ld 0) as Hb.
  assert (Hc : cut (render_template false lim c ld (fuel_bound lim ld) 0)).
  { unfold render_template. cbn [ld self_family nth_error]. unfold rwc. destruct (Nat.ltb lim initial_scope); [reflexivity|].
    apply top_body_cut. intros f' fr' _. apply rtag_cut. intros _. reflexivity. }
  destruct (render_template false lim c ld (fuel_bound lim ld) 0) as [o|]; [|congruence]. exists o. split; [reflexivity|exact Hc].
Qed.
Print Assumptions C09_recursion_cut.

(* the walk up an extends chain always finishes ... *)
Theorem C09_extends_total : forall parent leaf, base_of parent leaf <> OutOfFuel.
Proof. intros parent leaf. unfold base_of. apply extends_chain_total; simpl; [constructor|tauto|lia]. Qed.
Print Assumptions C09_extends_total.

(* ... in a template without an extends tag, or in TemplateInheritanceError / TemplateNotFoundError ... *)
Theorem C09_extends_result : forall parent leaf,
  match base_of parent leaf with
  | Ok b => nth_error parent b = Some None
  | Err e => e = EInherit \/ e = ENotFound
  | OutOfFuel => False
  end.
Proof.
  intros parent leaf. pose proof (C09_extends_total parent leaf) as Ht. unfold base_of in *.
  destruct (extends_chain (S (length parent)) parent [] leaf) eqn:E;
    [exact (extends_chain_result _ _ _ _ _ E)|exact (extends_chain_errors _ _ _ _ _ E)|congruence].
Qed.
Print Assumptions C09_extends_result.

(* ... and when every template extends an existing one (so that every chain is circular) always in TemplateInheritanceError *)
Theorem C09_circular_extends : forall parent leaf,
  (forall k, k < List.length parent -> exists p, nth_error parent k = Some (Some p) /\ p < List.length parent) ->
  leaf < List.length parent -> base_of parent leaf = Err EInherit.
Proof.
  intros parent leaf Hall Hleaf.
  assert (H : forall f seen cur, cur < List.length parent ->
              extends_chain f parent seen cur = OutOfFuel \/ extends_chain f parent seen cur = Err EInherit).
  { induction f as [|f IH]; intros seen cur Hc; simpl; [auto|].
    destruct (Hall cur Hc) as (p & -> & Hp). destruct (nmem p seen); [auto|].
    destruct (nth_error parent p) eqn:Ep; [apply IH; auto|]. apply nth_error_None in Ep. lia. }
  destruct (H (S (List.length parent)) [] leaf Hleaf) as [E|E]; [|exact E].
  exfalso. exact (C09_extends_total parent leaf E).
Qed.
Print Assumptions C09_circular_extends.

(* the stack: the Python frames in use are bounded by the limits ... *)
Theorem C09_stack_bound : forall lax lim c ld name o,
  render_template lax lim c ld (fuel_bound lim ld) name = Some o -> peak o <= fr_base c + kmax c * fuel_bound lim ld.
Proof.
  intros lax lim c ld name o. unfold render_template.
  destruct (nth_error ld name) as [body|] eqn:En; [|intros E; inversion E; simpl; lia].
  unfold rwc. destruct (Nat.ltb lim initial_scope); [intros E; inversion E; simpl; lia|].
  apply (runs_peak _ _ _ _ _ _ _ _ (R_top _ _ _ _ _ _)). intros x o' Hx E. pose proof (exec_peak _ _ _ _ _ _ _ _ _ _ E) as Hp.
  pose proof (Nat.mul_le_mono_l _ _ (kmax c) (need_top lim ld _ _ _ En Hx)). lia.
Qed.
Print Assumptions C09_stack_bound.

(* ... but with the default limits that bound is far above CPython's recursion limit.  BoundTemplate.render / render_async
   and Environment.from_string therefore convert a stack overflow into ContextDepthError (fix: C09-recursion-error-to-context-
   depth-error): a template that includes or renders itself from inside ANY number of nested blocks ends in ContextDepthError
   in strict mode for every limit, every frame cost and every stack size *)
Theorem C09_within_stack : forall stack lim cs k d, self_outcome true stack lim cs k d = TErr EContextDepth.
Proof.
  intros stack lim cs k d. unfold self_outcome. destruct (Nat.ltb stack (frames_needed cs lim k d)); [reflexivity|].
  destruct (C09_recursion_cut lim cs k d 0) as (o & -> & ->). reflexivity.
Qed.
Print Assumptions C09_within_stack.

(* the behaviour before the repair, refuted by witness: with limits 30 / 30 and the frame costs measured on CPython a template
   including itself from inside 15 nested if blocks (6 for render) overflowed the 1000-frame stack and RecursionError escaped
   (the check reproduces it in a child process on a tree without the repair) *)
Theorem C09_within_stack_old_refuted :
  exists d, d <= 30 /\ recursion_limit < frames_needed cpython_sync 30 KInclude d /\
            self_outcome_old recursion_limit 30 cpython_sync KInclude d = TErr ERecursionError.
Proof.
  exists 15. split; [lia|]. unfold self_outcome_old, self_outcome. rewrite frames_include_15.
  split; [unfold recursion_limit; lia|reflexivity].
Qed.
Print Assumptions C09_within_stack_old_refuted.

Theorem C09_within_stack_old_refuted_render :
  exists d, d <= 30 /\ self_outcome_old recursion_limit 30 cpython_sync KRender d = TErr ERecursionError.
Proof. exists 6. split; [lia|]. vm_compute. reflexivity. Qed.
Print Assumptions C09_within_stack_old_refuted_render.

(* lax mode: every depth-limit error is dropped by the nearest render_with_context, so a template that renders itself twice
   does 2^(limit+2) - 1 units of work (Terminate_Proofs.lax_work_exponential shows it for every limit that admits the initial
   scope; with the default limit of 30 that is 2^32: known finding lax-mode-exponential-work-self-render-twice;
   the proof does not use the upper bound 12) *)
Theorem C09_lax_work_exponential :
  forall lim, 4 <= lim <= 12 -> lax_texts lim 2 KRender = Some (2 ^ (N.of_nat lim + 2) - 1)%N.
Proof. intros lim [H _]. apply lax_work_exponential. exact H. Qed.
Print Assumptions C09_lax_work_exponential.

(* ---- reading aids (tests, not theorems) ---- *)
Example C09_frames_example : map (fun d => frames_needed cpython_sync 30 KInclude d) [0; 10; 14; 15] = [46; 696; 956; 1021].
Proof. cbn [map]. rewrite frames_include_15. vm_compute. reflexivity. Qed.

Example C09_circular_example : base_of [Some 1; Some 2; Some 0] 0 = Err EInherit /\ base_of [Some 1; None] 0 = Ok 1 /\ base_of [Some 0] 0 = Err EInherit.
Proof. vm_compute. repeat split; reflexivity. Qed.

Example C09_unterminated_blocks_parse_example :
  parse Lax 30 [TTag Ncase; TExpr (XOk (RVal [] 1)); TTag Nif; TTag Nfor; TTag Nwhen] = Ok (BCons NIllegal BNil, {| emitted := []; suppressed := [ESyntax] |}).
Proof. vm_compute. reflexivity. Qed.
