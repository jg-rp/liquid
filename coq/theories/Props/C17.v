(* C17 — Rendering is pure and independent of history.  Property theorems only. *)
From Coq Require Import String List.
From LiquidVerif Require Import Prelude MemoPurity MemoPurity_Proofs.
Import ListNotations.
Local Open Scope list_scope.

(* A memo table (functools.lru_cache: bounded, least recently used evicted, first key kept, raising calls not stored)
   in front of a function f is invisible -- after EVERY history of earlier calls a call returns exactly f of its
   argument -- whenever two keys that the table identifies (Python hash-and-==) are keys on which f agrees. *)
Theorem C17_memo_transparent : forall (K V : Type) (keq : K -> K -> bool) (f : K -> res V) (cap : nat),
  respects keq f -> forall hist k, fst (memo_call keq f cap (memo_state keq f cap [] hist) k) = f k.
Proof. exact @memo_transparent. Qed.
Print Assumptions C17_memo_transparent.

(* ... and the converse: one pair of keys that the table identifies but f distinguishes makes the history visible
   (whatever the capacity, as long as the table stores anything). *)
Theorem C17_memo_collision_visible : forall (K V : Type) (keq : K -> K -> bool) (f : K -> res V) (cap : nat) (k k' : K) (v : V),
  keq k' k = true -> f k = Ok v -> f k' <> Ok v -> (1 <= cap)%nat ->
  fst (memo_call keq f cap (memo_state keq f cap [] [k]) k') <> f k'.
Proof. exact @memo_collision_visible. Qed.
Print Assumptions C17_memo_collision_visible.

(* The table never grows beyond its capacity, whatever the history. *)
Theorem C17_memo_bounded : forall (K V : Type) (keq : K -> K -> bool) (f : K -> res V) (cap : nat) hist,
  (length (memo_state keq f cap [] hist) <= cap)%nat.
Proof. exact @memo_bounded. Qed.
Print Assumptions C17_memo_bounded.

(* The repaired date filter (only the parsing of a date string is memoised, keyed by its text and the day): after any
   history of calls, on any days, with any arguments, it returns what it returns in a process that has rendered
   nothing -- for every table ft of fresh-process behaviours. *)
Theorem C17_date_history_independent : forall ft hist day k,
  fst (date_new_call ft (date_new_state ft [] hist) day k) = dlook ft k.
Proof. exact date_new_history_independent. Qed.
Print Assumptions C17_date_history_independent.

(* The date filter as it was (lru_cache around the whole filter, keys compared with ==): refuted.  After
   1 | date: '%Y' the call 1.0 | date: '%Y' returns the stored 1970 instead of raising. *)
Theorem C17_date_old_refuted :
  exists ft hist k, fst (date_old_call ft (memo_state dkey_py_eq (dlook ft) date_cap [] hist) k) <> dlook ft k.
Proof. exact date_old_refuted. Qed.
Print Assumptions C17_date_old_refuted.

(* lru_cache(typed=True) would not have repaired it: equal instants in different time zones have one type. *)
Theorem C17_date_typed_cache_refuted :
  exists ft hist k,
    fst (memo_call dkey_typed_eq (dlook ft) date_cap (memo_state dkey_typed_eq (dlook ft) date_cap [] hist) k) <> dlook ft k.
Proof. exact date_typed_cache_refuted. Qed.
Print Assumptions C17_date_typed_cache_refuted.

(* The process: implicit-environment table (liquid.Template, keys compared with ==), lexer table, parser table and
   date-string table in front of the fresh-process behaviour ft of render jobs.  If ft does not depend on the TYPE of
   environment arguments that compare equal (extra=1 / True / 1.0 ...: checked on the implementation for every such
   pair the run generates), a job gives after ANY history of jobs what it gives in a process that has rendered nothing. *)
Theorem C17_history_independent : forall ft,
  cfg_respected ft -> forall hist j, fst (step ft (proc_state ft proc0 hist) j) = jlook ft j.
Proof. exact proc_history_independent. Qed.
Print Assumptions C17_history_independent.

(* Partial (data immutability): Gallina values cannot be mutated, so this only says that the modelled array filters
   (default, first, last, concat, reverse, sort, compact, uniq, size, join), applied in any chain to any heap of list
   objects, leave every list object that existed with the contents it had; which filters hand back an alias and which
   a new object is compared with the implementation case by case.  The mutation check proper (deep copy of the data
   and of the template around every render) is implementation-side. *)
Theorem C17_filters_never_write_partial : forall fs h l a,
  (a < length h)%nat -> cells (fst (chain h l fs)) a = cells h a.
Proof. exact filters_never_write. Qed.
Print Assumptions C17_filters_never_write_partial.

(* non-vacuity: a collision of 1 and 1.0 under ==, none under the repaired model; the hypothesis of
   C17_history_independent is met by the empty table of fresh-process behaviours (no table with an entry is exhibited);
   single filter applications that hand back the argument object, a fresh object, and the input object *)
Example C17_py_eq_example : py_eq (PInt 1) (PFloat 2) = true /\ py_eq (PInt 1) (PBool true) = true /\
  py_eq (PStr (mlit "a"%string)) (PMarkup (mlit "a"%string)) = true /\ py_eq (PDt 5 0) (PDt 5 60) = true /\
  py_eq (PInt 1) (PStr (mlit "1"%string)) = false.
Proof. vm_compute. repeat split. Qed.

Example C17_date_new_example :
  fst (date_new_call old_witness_table (date_new_state old_witness_table [] [(0%Z, (PInt 1, y_fmt, 0%N))]) 0%Z (PFloat 2, y_fmt, 0%N))
  = Err EFilterArg.
Proof. vm_compute. reflexivity. Qed.

Example C17_cfg_respected_example : cfg_respected [].
Proof. intros a b _. reflexivity. Qed.

Example C17_effect_example :
  run_effect {| ec_heap := [[CNum 1; CNum 2]]; ec_op := FConcat; ec_left := VUndef; ec_arg := VList 0 |} = AArg /\
  run_effect {| ec_heap := [[CNum 1; CNum 2]]; ec_op := FReverse; ec_left := VList 0; ec_arg := VNil |} = AFresh /\
  run_effect {| ec_heap := [[CNum 1; CNum 2]]; ec_op := FDefault; ec_left := VList 0; ec_arg := VNil |} = AInput.
Proof. vm_compute. repeat split. Qed.
