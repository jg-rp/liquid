(* C24 — LRU caches behave as bounded least-recently-used maps.
   The theorems of the property, over the models Lru.v and LruSpec.v. *)
From LiquidVerif Require Import Prelude Lru Lru_Proofs LruSpec LruSpec_Proofs.
From Coq Require Import Sorted.

(* at most capacity entries, never two entries for one key, after every operation sequence *)
Theorem C24_capacity : forall n ops, 1 <= n ->
  length (items (final (empty n) ops)) <= n /\ NoDup (map fst (items (final (empty n) ops))).
Proof.
  intros n ops Hn. destruct (reachable_rinv n ops Hn) as (Hnd & _ & _ & _ & Hlen).
  rewrite gfinal_cap in Hlen. change (empty n) with (erase (gempty n)). rewrite <- gfinal_erase. simpl.
  rewrite erase_length. split; assumption.
Qed.
Print Assumptions C24_capacity.

(* the recency-stamped machine is the plain machine with ghost state *)
Theorem C24_ghost_erasure : forall g o,
  erase (fst (gstep g o)) = fst (step (erase g) o) /\ snd (gstep g o) = snd (step (erase g) o).
Proof. exact gstep_erase. Qed.
Print Assumptions C24_ghost_erasure.

(* overflow evicts exactly the entry whose last use is oldest; the rest is untouched *)
Theorem C24_eviction : forall n ops k v k0 v0 t0 rest,
  let g := gfinal (gempty n) ops in
  glookup k (gitems g) = None -> gcap g <= length (gitems g) -> gitems g = (k0, v0, t0) :: rest ->
  gitems (fst (gstep g (Set_ k v))) = rest ++ [(k, v, clock g)] /\ Forall (fun t => t0 < t) (times rest).
Proof.
  intros n ops k v k0 v0 t0 rest g Habs Hfull Hitems. split.
  - simpl. rewrite Habs. destruct (Nat.leb_spec (gcap g) (length (gitems g))); [|lia].
    simpl. rewrite Hitems. reflexivity.
  - destruct (gfinal_inv n ops) as (_ & Hs & _). fold g in Hs. rewrite Hitems in Hs.
    apply StronglySorted_inv in Hs. apply Hs.
Qed.
Print Assumptions C24_eviction.

Theorem C24_no_eviction_otherwise : forall g k v,
  (exists vt, glookup k (gitems g) = Some vt) \/ length (gitems g) < gcap g ->
  forall k', k' <> k -> glookup k' (gitems (fst (gstep g (Set_ k v)))) = glookup k' (gitems g).
Proof.
  intros g k v H k' Hne. simpl.
  destruct (glookup k (gitems g)) as [[v0 t0]|] eqn:E; simpl.
  - rewrite glookup_snoc_other, glookup_gremove by exact Hne.
    destruct (N.eqb_spec k' k); [congruence|reflexivity].
  - destruct H as [[vt Hvt]|Hroom]; [discriminate|].
    destruct (Nat.leb_spec (gcap g) (length (gitems g))); [lia|]. simpl.
    apply glookup_snoc_other, Hne.
Qed.
Print Assumptions C24_no_eviction_otherwise.

(* a lookup returns the most recently stored value; the stamp is the last use in the history *)
Theorem C24_get_latest : forall n ops k,
  let g := gfinal (gempty n) ops in
  match glookup k (gitems g) with
  | Some (v, t) =>
      snd (gstep g (Get k)) = OVal v /\ (forall d, snd (gstep g (GetD k d)) = OVal v) /\
      last_stored (rev ops) k = Some v /\ last_use (rev ops) k = Some t
  | None => snd (gstep g (Get k)) = OKeyError /\ (forall d, snd (gstep g (GetD k d)) = OVal d)
  end.
Proof.
  intros n ops k g. destruct (history_reachable n ops) as [_ H]. fold g in H.
  specialize (H k). unfold amap_of in H. simpl.
  destruct (glookup k (gitems g)) as [[v t]|]; [destruct (H v t eq_refl); auto | auto].
Qed.
Print Assumptions C24_get_latest.

(* listings run from most to least recently used *)
Theorem C24_listing_order : forall n ops,
  let g := gfinal (gempty n) ops in
  snd (gstep g Items) = OItems (rev (erase_items (gitems g))) /\
  snd (gstep g Keys) = OKeys (map fst (rev (erase_items (gitems g)))) /\
  snd (gstep g Values) = OVals (map snd (rev (erase_items (gitems g)))) /\
  StronglySorted gt (rev (times (gitems g))).
Proof.
  intros n ops g. simpl. rewrite !map_rev. repeat split.
  destruct (gfinal_inv n ops) as (_ & Hs & _). apply (sorted_rev gt). exact Hs.
Qed.
Print Assumptions C24_listing_order.

(* thread-safe variant: method bodies are atomic, so every schedule is a sequential history *)
Theorem C24_threadsafe_linearizable : forall m acts s,
  tc (tfinal m s acts) = final (tc s) (calls acts).
Proof.
  intros m acts. unfold tfinal, final. induction acts as [|a acts IH]; simpl; intro s; [reflexivity|].
  rewrite IH, tstep_cache. destruct a; reflexivity.
Qed.
Print Assumptions C24_threadsafe_linearizable.

(* ... and listing under concurrent mutation never fails (snapshot listings) *)
Theorem C24_listing_never_fails : forall n acts, ~ In TRuntimeError (trun Snapshot (tinit n) acts).
Proof.
  intros n acts. assert (H : all_snap (tinit n)) by (intros t i; discriminate).
  revert H. generalize (tinit n). induction acts as [|a acts IH]; simpl; intros s H; [tauto|].
  destruct (tstep_snapshot_ok s a H) as [H' Hne].
  destruct (tstep Snapshot s a) as [s' r]. cbn [fst snd] in H', Hne.
  intros [E|Hin]; [congruence | exact (IH s' H' Hin)].
Qed.
Print Assumptions C24_listing_never_fails.

(* the lazily evaluated views of the code before the fix do fail: kept as the witness *)
Theorem C24_lazy_listing_refuted : exists n acts, In TRuntimeError (trun Lazy (tinit n) acts).
Proof.
  exists 2, [Call 1 (Set_ 1%N 1%Z); ListBegin 1; Call 2 (Set_ 2%N 1%Z); ListNext 1].
  vm_compute. tauto.
Qed.
Print Assumptions C24_lazy_listing_refuted.

(* ================= refinement to the abstract bounded LRU map (LruSpec.v) ================= *)

(* the states a cache can reach satisfy the invariant: one entry per key, capacity at least 1 and never exceeded,
   entries in order of last use, every last-use time in the past *)
Theorem C24_reachable_invariant : forall n ops, 1 <= n -> RInv (gfinal (gempty n) ops).
Proof. exact reachable_rinv. Qed.
Print Assumptions C24_reachable_invariant.

Theorem C24_invariant_preserved : forall g o, RInv g -> RInv (fst (gstep g o)).
Proof. exact gstep_rinv. Qed.
Print Assumptions C24_invariant_preserved.

(* EVERY public operation (c[k], c.get(k, d), c.get(k), c[k] = v, del c[k], k in c, len(c), keys, values, items, iter) of
   the OrderedDict machine is the same operation of the abstract bounded LRU map LruSpec.lru_step -- a function from keys
   to (value, time of last use), no list order --, with the same result: lookups and stores are uses, a store of a new
   key into a full map evicts exactly the key whose last use is oldest, membership / len / listings change nothing,
   listings hold every entry once, most recently used first *)
Theorem C24_refines_bounded_lru : forall g o, RInv g ->
  lru_step (gcap g) (amap_of g) (clock g) o (amap_of (fst (gstep g o))) (snd (gstep g o)) /\
  clock (fst (gstep g o)) = S (clock g) /\ gcap (fst (gstep g o)) = gcap g.
Proof.
  intros g o HR. pose proof HR as (Hnd & Hs & Hf & Hcap & Hlen).
  split; [|split; [apply gstep_clock | apply gstep_cap]].
  destruct o; simpl.
  - (* Get *) destruct (glookup k (gitems g)) as [[v t]|] eqn:E; simpl.
    + eapply L_get_hit; [exact E|apply touch_ok].
    + apply L_get_miss; [exact E|apply same_refl].
  - (* GetD *) destruct (glookup k (gitems g)) as [[v t]|] eqn:E; simpl.
    + eapply L_getd_hit; [exact E|apply touch_ok].
    + apply L_getd_miss; [exact E|apply same_refl].
  - (* GetN *) destruct (glookup k (gitems g)) as [[v t]|] eqn:E; simpl.
    + eapply L_getn_hit; [exact E|apply touch_ok].
    + apply L_getn_miss; [exact E|apply same_refl].
  - (* Set *) destruct (glookup k (gitems g)) as [[v0 t]|] eqn:E; simpl.
    + eapply L_set_hit; [exact E|apply touch_ok].
    + destruct (Nat.leb (gcap g) (length (gitems g))) eqn:Efull; simpl.
      * apply Nat.leb_le in Efull. destruct (gitems g) as [|[[k0 v0] t0] rest] eqn:Ei; [simpl in Efull; lia|].
        eapply (L_set_evict _ _ _ k v (length (gitems g)) k0).
        -- unfold amap_of. rewrite Ei. exact E.
        -- apply card_of. rewrite Ei. exact Hnd.
        -- rewrite Ei. exact Efull.
        -- eapply oldest_of; [exact HR|exact Ei].
        -- intro k'. unfold amap_of, touch, drop. simpl gitems. simpl tl. rewrite Ei, glookup_snoc, (glookup_tl k0 v0 t0 rest k' Hnd).
           destruct (N.eqb_spec k' k) as [->|Hk].
           ++ rewrite E. destruct (N.eqb k k0); reflexivity.
           ++ destruct (N.eqb k' k0); [reflexivity|]. destruct (glookup k' ((k0, v0, t0) :: rest)); reflexivity.
      * apply Nat.leb_gt in Efull. eapply (L_set_room _ _ _ k v (length (gitems g))).
        -- exact E.
        -- apply card_of, Hnd.
        -- exact Efull.
        -- intro k'. unfold amap_of, touch. simpl gitems. rewrite glookup_snoc.
           destruct (N.eqb_spec k' k) as [->|Hk]; [rewrite E; reflexivity|]. destruct (glookup k' (gitems g)); reflexivity.
  - (* Del *) destruct (glookup k (gitems g)) as [[v t]|] eqn:E; simpl.
    + apply L_del_hit; [unfold amap_of; rewrite E; discriminate|].
      intro k'. unfold amap_of, drop. simpl gitems. apply glookup_gremove.
    + apply L_del_miss; [exact E|apply same_refl].
  - (* Contains *) apply L_contains. apply same_refl.
  - (* Len *) apply L_len; [apply same_refl|apply card_of, Hnd].
  - (* Keys *) rewrite <- map_rev. apply L_keys; [apply same_refl|apply listing_of, HR].
  - (* Values *) rewrite <- map_rev. apply L_values; [apply same_refl|apply listing_of, HR].
  - (* Items *) apply L_items; [apply same_refl|apply listing_of, HR].
  - (* Iter *) rewrite <- map_rev. apply L_iter; [apply same_refl|apply listing_of, HR].
Qed.
Print Assumptions C24_refines_bounded_lru.

Theorem C24_reachable_refines : forall n ops o, 1 <= n ->
  let g := gfinal (gempty n) ops in
  lru_step n (amap_of g) (clock g) o (amap_of (fst (gstep g o))) (snd (gstep g o)).
Proof.
  intros n ops o Hn g. pose proof (reachable_rinv n ops Hn) as HR. fold g in HR.
  pose proof (gfinal_cap ops (gempty n)) as Hc. fold g in Hc. simpl in Hc.
  rewrite <- Hc. apply C24_refines_bounded_lru, HR.
Qed.
Print Assumptions C24_reachable_refines.

(* ================= the remaining public surface ================= *)

(* construction: LRUCache(capacity) raises ValueError exactly for a capacity below 1 (0, negative); otherwise the cache is
   empty with that capacity *)
Theorem C24_construction : forall n,
  (make n = None <-> (n < 1)%Z) /\
  (forall c, make n = Some c -> items c = [] /\ Z.of_nat (cap c) = n /\ wf c).
Proof.
  intro n. unfold make. destruct (Z.ltb_spec n 1) as [Hlt|Hge]; split.
  - split; [intros _; exact Hlt|reflexivity].
  - intros c H; discriminate.
  - split; [discriminate|intro; lia].
  - intros c H. inversion H; subst. simpl. split; [reflexivity|]. split; [lia|]. apply wf_empty. lia.
Qed.
Print Assumptions C24_construction.

(* `k in c`, len(c) and the four listings are NOT uses: no entry moves and no last-use time changes *)
Theorem C24_membership_len_listings_are_not_uses : forall g c o, readonly o = true ->
  gitems (fst (gstep g o)) = gitems g /\ fst (step c o) = c.
Proof. intros g c o. destruct o; simpl; try discriminate; intros _; split; reflexivity. Qed.
Print Assumptions C24_membership_len_listings_are_not_uses.

(* neither is a lookup or deletion of a key that is not cached *)
Theorem C24_missing_key_is_not_a_use : forall g k, glookup k (gitems g) = None ->
  gitems (fst (gstep g (Get k))) = gitems g /\ (forall d, gitems (fst (gstep g (GetD k d))) = gitems g) /\
  gitems (fst (gstep g (GetN k))) = gitems g /\ gitems (fst (gstep g (Del k))) = gitems g.
Proof. intros g k E. simpl. rewrite E. simpl. repeat split. Qed.
Print Assumptions C24_missing_key_is_not_a_use.

(* a successful lookup by any of the three spellings makes the key the first entry of the listings; the others keep
   their relative order *)
Theorem C24_lookup_moves_to_front : forall g k v t o,
  glookup k (gitems g) = Some (v, t) -> (o = Get k \/ (exists d, o = GetD k d) \/ o = GetN k) ->
  snd (gstep g o) = OVal v /\
  snd (gstep (fst (gstep g o)) Items) = OItems ((k, v) :: rev (erase_items (gremove k (gitems g)))).
Proof.
  intros g k v t o E [->|[[d ->]| ->]]; simpl; rewrite E; simpl; rewrite erase_rev_snoc; split; reflexivity.
Qed.
Print Assumptions C24_lookup_moves_to_front.

(* re-inserting a cached key replaces its value, moves it to the front and evicts nothing *)
Theorem C24_store_existing_moves_to_front : forall g k v v0 t,
  glookup k (gitems g) = Some (v0, t) ->
  snd (gstep (fst (gstep g (Set_ k v))) Items) = OItems ((k, v) :: rev (erase_items (gremove k (gitems g)))) /\
  forall k', k' <> k -> glookup k' (gitems (fst (gstep g (Set_ k v)))) = glookup k' (gitems g).
Proof.
  intros g k v v0 t E. split; [simpl; rewrite E; simpl; rewrite erase_rev_snoc; reflexivity|].
  apply C24_no_eviction_otherwise. left. exists (v0, t). exact E.
Qed.
Print Assumptions C24_store_existing_moves_to_front.

Theorem C24_len_and_iter : forall c, snd (step c Len) = OLen (length (items c)) /\ snd (step c Iter) = snd (step c Keys).
Proof. intro c. split; reflexivity. Qed.
Print Assumptions C24_len_and_iter.

(* c.get(k) without a default: the most recently stored value, else None; a use exactly like c[k] *)
Theorem C24_get_without_default : forall n ops k,
  let g := gfinal (gempty n) ops in
  match glookup k (gitems g) with
  | Some (v, t) => snd (gstep g (GetN k)) = OVal v /\ last_stored (rev ops) k = Some v /\
                   fst (gstep g (GetN k)) = fst (gstep g (Get k))
  | None => snd (gstep g (GetN k)) = ONone /\ fst (gstep g (GetN k)) = fst (gstep g (Get k))
  end.
Proof.
  intros n ops k g. pose proof (C24_get_latest n ops k) as H. fold g in H. simpl in H |- *.
  destruct (glookup k (gitems g)) as [[v t]|]; simpl.
  - destruct H as (_ & _ & Hs & _). repeat split; assumption.
  - split; reflexivity.
Qed.
Print Assumptions C24_get_without_default.

(* ================= thread-safe class ================= *)

(* every public method, whatever the operation, is one atomic section: one step of the plain cache on the current
   contents; it returns that step's result and touches no iterator *)
Theorem C24_every_method_atomic : forall m s tid o,
  tc (fst (tstep m s (Call tid o))) = fst (step (tc s) o) /\
  snd (tstep m s (Call tid o)) = TOut (snd (step (tc s) o)) /\
  titers (fst (tstep m s (Call tid o))) = titers s.
Proof. exact call_is_atomic. Qed.
Print Assumptions C24_every_method_atomic.

(* the listing methods return SNAPSHOTS: what a thread is handed after it began a listing is exactly the items as they
   were when the listing method ran, most recent first, however the schedule interleaves the other actions *)
Theorem C24_listing_is_snapshot : forall tid s acts,
  no_begin tid acts = true ->
  yields_of tid (ListBegin tid :: acts) (trun Snapshot s (ListBegin tid :: acts)) =
  firstn (nexts tid acts) (rev (items (tc s))).
Proof. exact snapshot_listing_is_snapshot. Qed.
Print Assumptions C24_listing_is_snapshot.

(* non-vacuity: a concrete full cache in which an eviction happens *)
Example C24_eviction_nonvacuous :
  let g := gfinal (gempty 2) [Set_ 1%N 10%Z; Set_ 2%N 20%Z; Get 1%N] in
  glookup 3%N (gitems g) = None /\ gcap g <= length (gitems g) /\
  gitems (fst (gstep g (Set_ 3%N 30%Z))) = [(1%N, 10%Z, 2); (3%N, 30%Z, 3)].
Proof. vm_compute. repeat split; lia. Qed.

(* non-vacuity of the refinement's eviction rule and of the snapshot theorem *)
Example C24_refinement_nonvacuous :
  let g := gfinal (gempty 2) [Set_ 1%N 10%Z; Set_ 2%N 20%Z; GetN 1%N; Contains 2%N] in
  RInv g /\ amap_of g 2%N = Some (20%Z, 1) /\ amap_of g 1%N = Some (10%Z, 2) /\
  amap_of (fst (gstep g (Set_ 3%N 30%Z))) 2%N = None /\ amap_of (fst (gstep g (Set_ 3%N 30%Z))) 3%N = Some (30%Z, 4).
Proof. split; [apply reachable_rinv; lia|vm_compute; repeat split]. Qed.

Example C24_snapshot_nonvacuous :
  let acts := [ListBegin 1; Call 2 (Set_ 3%N 30%Z); ListNext 1; Call 2 (Del 1%N); ListNext 1; ListNext 1] in
  let s := tfinal Snapshot (tinit 2) [Call 0 (Set_ 1%N 10%Z); Call 0 (Set_ 2%N 20%Z)] in
  yields_of 1 acts (trun Snapshot s acts) = [(2%N, 20%Z); (1%N, 10%Z)].
Proof. vm_compute. reflexivity. Qed.

Example C24_construction_examples : make 0 = None /\ make (-3) = None /\ make 1 = Some (empty 1).
Proof. vm_compute. repeat split. Qed.
