(* C01 — Synchronous and asynchronous APIs behave identically.  Property theorems only.
   One theorem per hand-written pair the property names; the caching-loader pair (CachingLoaderMixin.load / load_async)
   is C23_sync_async_copies_agree in Props/C23.v and is not repeated here.  Second part (after the paired tags): template
   inheritance incl. block.super (PairInherit.v), name -> bound template and the API-mix theorem over C23's model of the
   caching mixin (PairLoad.v), the two static-analysis walks (PairAnalyze.v). *)
From Coq Require Import String List.
From LiquidVerif Require Import Prelude PyPrims MacroArgs PairSync PairSync_Proofs PairTags PairTags_Proofs.
From LiquidVerif Require PairInherit PairInherit_Proofs PairLoad PairLoad_Proofs PairAnalyze PairAnalyze_Proofs CachingLoader.
Import ListNotations.
Local Open Scope list_scope.

(* RenderContext.get_async = RenderContext.get for every scope and every evaluated path, whatever the first segment is
   (a string, an int, or any other object): the repaired copy. *)
Theorem C01_context_get : forall sc segs, ctx_get_async sc segs = ctx_get sc segs.
Proof. exact ctx_get_async_eq. Qed.
Print Assumptions C01_context_get.

(* Path.evaluate_async = Path.evaluate for every path, bracketed paths nested to any depth. *)
Theorem C01_path_evaluate : forall fuel sc p, eval_path_async fuel sc p = eval_path_sync fuel sc p.
Proof. exact path_async_eq. Qed.
Print Assumptions C01_path_evaluate.

(* As found (assert isinstance(root, str)): refuted by {{ [x] }} with x = 1 -- undefined synchronously, AssertionError
   asynchronously ... *)
Theorem C01_path_evaluate_old_refuted :
  exists sc p, eval_path_async_old (path_size p) sc p <> eval_path_sync (path_size p) sc p.
Proof. exists [(plit "x"%string, VInt 1)], [PNested [PName (plit "x"%string)]]. vm_compute. discriminate. Qed.
Print Assumptions C01_path_evaluate_old_refuted.

(* ... and equal when the path and every nested path start with a name. *)
Theorem C01_path_evaluate_old_partial : forall fuel sc p,
  roots_named fuel p = true -> eval_path_async_old fuel sc p = eval_path_sync fuel sc p.
Proof. exact path_async_old_partial. Qed.
Print Assumptions C01_path_evaluate_old_partial.

(* IfNode: the repaired asynchronous copy renders the same blocks and performs the same number of condition evaluations
   as the synchronous copy, for conditions with arbitrary side effects (a condition is any function of the number of
   evaluations performed so far), any number of elsif branches, with or without else. *)
Theorem C01_if_elsif : forall n node, if_async n node = if_sync n node.
Proof. intros n node. unfold if_async, if_sync. destruct (i_cond node n); [reflexivity|]. apply alts_async_eq. Qed.
Print Assumptions C01_if_elsif.

(* As found (a taken elsif branch evaluates its condition a second time): refuted for a condition that is true the first
   time and false the second (nothing is rendered, not even the else branch) ... *)
Theorem C01_if_elsif_old_refuted : exists node, fst (if_async_old 0 node) <> fst (if_sync 0 node).
Proof.
  exists {| i_cond := fun _ => false; i_then := 0%N; i_alts := [((fun n => Nat.eqb n 1), 1%N)]; i_else := Some 9%N |}.
  vm_compute. discriminate.
Qed.
Print Assumptions C01_if_elsif_old_refuted.

(* ... while for side-effect-free conditions the same blocks are rendered. *)
Theorem C01_if_elsif_old_partial : forall node n,
  pure_cond (i_cond node) -> Forall (fun cb => pure_cond (fst cb)) (i_alts node) ->
  fst (if_async_old n node) = fst (if_sync n node).
Proof.
  intros node n P A. unfold if_async_old, if_sync. destruct (i_cond node n); [reflexivity|]. apply alts_async_old_pure, A.
Qed.
Print Assumptions C01_if_elsif_old_partial.

(* FilteredExpression / TernaryFilteredExpression: evaluate_async = evaluate whenever every filter that has an asynchronous
   version agrees with its synchronous version -- in particular for the built-in filters, none of which has one. *)
Theorem C01_filtered : forall left fs, filters_agree fs -> filtered_async left fs = filtered_sync left fs.
Proof. exact filtered_async_eq. Qed.
Print Assumptions C01_filtered.

Theorem C01_ternary : forall c left lfs alt fs tail,
  filters_agree lfs -> filters_agree fs -> filters_agree tail ->
  ternary_async c left lfs alt fs tail = ternary_sync c left lfs alt fs tail.
Proof.
  intros c left lfs alt fs tail A B C. unfold ternary_async, ternary_sync. destruct c as [b| |]; [|reflexivity|reflexivity].
  simpl. rewrite (filtered_async_eq left lfs A).
  destruct b.
  - destruct (filtered_sync left lfs); [|reflexivity|reflexivity]. apply apply_async_eq, C.
  - destruct alt as [[v| |]|]; try reflexivity; simpl.
    + rewrite (apply_async_eq fs B). destruct (apply_sync fs v); [|reflexivity|reflexivity]. apply apply_async_eq, C.
    + apply apply_async_eq, C.
Qed.
Print Assumptions C01_ternary.

(* BaseLoader.load_async names the template as load does (repaired by the C23 patch C23-load-async-template-name), hence
   an include tag without alias binds its `with` value to the same variable through both APIs. *)
Theorem C01_loader_name : forall alias name full,
  load_name_async name full = load_name_sync name full /\
  include_key alias (load_name_async name full) = include_key alias (load_name_sync name full).
Proof. intros. split; reflexivity. Qed.
Print Assumptions C01_loader_name.

(* As found (name=name): refuted by 'dir/q' -- template name q vs dir/q, include binds q vs dir/q ... *)
Theorem C01_loader_name_old_refuted :
  exists name full, load_name_async_old name full <> load_name_sync name full /\
                    include_key None (load_name_async_old name full) <> include_key None (load_name_sync name full).
Proof. exists (plit "dir/q"%string), (plit "dir/q"%string). split; vm_compute; discriminate. Qed.
Print Assumptions C01_loader_name_old_refuted.

(* ... and equal for names without a directory part whose source name is the requested name. *)
Theorem C01_loader_name_old_partial : forall name, has_slash name = false ->
  load_name_async_old name name = load_name_sync name name.
Proof.
  intros name H. unfold load_name_async_old, load_name_sync, basename. rewrite basename_acc_noslash by exact H. reflexivity.
Qed.
Print Assumptions C01_loader_name_old_partial.

(* non-vacuity *)
Example C01_path_example :
  run_path {| pc_scope := [(plit "x"%string, VInt 1); (plit "a"%string, VDict [(plit "b"%string, VStr (plit "v"%string))])];
              pc_path := [PName (plit "a"%string); PNested [PName (plit "k"%string)]] |} = (OText [], OText []) /\
  run_path_old {| pc_scope := [(plit "x"%string, VInt 1)]; pc_path := [PNested [PName (plit "x"%string)]] |}
    = (OText [], OExn EAssertionError).
Proof. vm_compute. split; reflexivity. Qed.

Example C01_if_example :
  run_if_old {| ic_script := [false; true; false]; ic_nalts := 2; ic_else := true |} = (([1%N], 2), ([], 3)) /\
  run_if {| ic_script := [false; true; false]; ic_nalts := 2; ic_else := true |} = (([1%N], 2), ([1%N], 2)).
Proof. vm_compute. split; reflexivity. Qed.

Example C01_roots_named_example : roots_named 3 [PName (plit "a"%string); PNested [PName (plit "k"%string)]] = true.
Proof. reflexivity. Qed.

Example C01_filters_agree_example : filters_agree [{| f_sync := fun v => Ok v; f_async := None |}].
Proof. constructor; [exact I | constructor]. Qed.

(* ---------------------------------------------------------------------------------------------------------------
   The paired copies of the tags (PairTags.v): each copy is a sequence of primitive render-context operations; compared
   are the evaluation log (which variable is looked up when, answered by a local namespace / the globals / nothing), the
   trace of context operations with their arguments (extend, bind, loop-limit checks, loop_iterations, copy with its
   flags, render_with_context with its flags), the output and the outcome. *)

(* IncludeNode: name evaluation, get_template, keyword arguments, extend, bound variable (evaluated with the arguments in
   scope), array / single branch, loop-limit check, loop_iterations, render_with_context -- same operations in the same
   order through both APIs, for every environment, context, node and starting state. *)
Theorem C01_include_tag : forall e c n s, include_async e c n s = include_sync e c n s.
Proof. reflexivity. Qed.
Print Assumptions C01_include_tag.

(* RenderNode: get_template, keyword arguments, copy (include disabled, iterations carried, template), bound variable
   (evaluated in the CALLER's context), forloop drop, one isolated copy per item, block scope. *)
Theorem C01_render_tag : forall e c n s, render_async e c n s = render_sync e c n s.
Proof. reflexivity. Qed.
Print Assumptions C01_render_tag.

(* CallNode: macro lookup, excess positional, excess keyword, then parameters in declaration order, copy (include and
   block disabled, iterations carried), body rendered as a block. *)
Theorem C01_call_tag : forall e c n s, call_async e c n s = call_sync e c n s.
Proof. reflexivity. Qed.
Print Assumptions C01_call_tag.

(* The model tells the two divergences that were once seeded apart: the bound variable of include evaluated before the
   keyword arguments are pushed (log and output differ for {% include 'p' with gx, gx: 7 %}) ... *)
Theorem C01_include_seeded_refuted :
  exists e c n,
    s_log (snd (include_async_seeded e c n st0)) <> s_log (snd (include_sync e c n st0)) /\
    s_out (snd (include_async_seeded e c n st0)) <> s_out (snd (include_sync e c n st0)).
Proof. exists seed1_env, seed1_ctx, seed1_node. split; vm_compute; discriminate. Qed.
Print Assumptions C01_include_seeded_refuted.

(* ... and carry_loop_iterations dropped from the copy made by call (outcome and copy flags differ under a loop limit). *)
Theorem C01_call_seeded_refuted :
  exists e c n,
    fst (call_async_seeded e c n st0) <> fst (call_sync e c n st0) /\
    s_trace (snd (call_async_seeded e c n st0)) <> s_trace (snd (call_sync e c n st0)).
Proof. exists seed2_env, seed2_ctx, seed2_node. split; vm_compute; discriminate. Qed.
Print Assumptions C01_call_seeded_refuted.

(* What both copies of include do with the bound variable, for all inputs: once the keyword arguments are pushed, a
   keyword argument of the same name answers and the globals are not consulted. *)
Theorem C01_include_bound_var_scope : forall e c m x y s c1 s1,
  extend e c m s = (Ok c1, s1) -> alookup x m = Some y ->
  resolve c1 x s1 = (Ok y, log1 s1 (x, WLocal)).
Proof.
  intros e c m x y s c1 s1 H A. destruct (extend_ok _ _ _ _ _ _ H) as (Sc & _ & _).
  unfold resolve. rewrite Sc. cbn [scope_lookup]. rewrite A. reflexivity.
Qed.
Print Assumptions C01_include_bound_var_scope.

(* What a copy with carry_loop_iterations hands to the callee's loop-limit checks. *)
Theorem C01_copy_carries_iterations : forall e c m d b t s cx s1,
  copy e c m d true b t s = (Ok cx, s1) -> c_carry cx = prod (c_loops c) * c_carry c.
Proof. intros e c m d b t s cx s1 H. destruct (copy_ok _ _ _ _ _ _ _ _ _ _ H) as (_ & K & _). exact K. Qed.
Print Assumptions C01_copy_carries_iterations.

Example C01_include_tag_example :
  o_seen (fst (run_include ({| tc_limit := None; tc_depth := 30; tc_loops := []; tc_globals := [(lit "gx", VS 5)];
                                tc_templates := [(lit "p", [PPrint (lit "p"); PPrint (lit "gx")])]; tc_macros := [] |},
                            {| in_name := ELit (VS 0); in_tname := lit "p"; in_var := Some (EVar (lit "gx")); in_alias := None;
                               in_args := [(lit "gx", ELit (VS 7))] |}))) = [] /\
  o_out (fst (run_include ({| tc_limit := None; tc_depth := 30; tc_loops := []; tc_globals := [(lit "gx", VS 5)];
                               tc_templates := [(lit "p", [PPrint (lit "p"); PPrint (lit "gx")])]; tc_macros := [] |},
                           {| in_name := ELit (VS 0); in_tname := lit "p"; in_var := Some (EVar (lit "gx")); in_alias := None;
                              in_args := [(lit "gx", ELit (VS 7))] |}))) = [OV (VS 7); OV (VS 7)].
Proof. vm_compute. split; reflexivity. Qed.

(* ===============================================================================================================
   Template inheritance (PairInherit.v): both copies of ExtendsNode.render_to_output, BlockNode.render_to_output,
   _build_block_stacks and the node loop of render_with_context, and the ONE copy of BlockDrop.__getitem__ (block.super),
   which renders the parent block with the synchronous Node.render under either API.  The two APIs differ in two
   primitives -- obtaining a template and reading an item of a data object -- and every event records which API it went
   through and whether it happened inside block.super.  erase_run forgets those two marks and keeps the outcome, the
   block stacks left behind, the output and the sequence of loads (hits and misses). *)
Module PI := PairInherit.
Module PIP := PairInherit_Proofs.

(* render_async = render, for every world, template, fuel and initial block stacks, whenever the two APIs agree on the
   templates loaded and items read OUTSIDE block.super during the synchronous render.  Nothing is required of what is
   reached inside block.super: there both APIs run the same synchronous code. *)
Theorem C01_inherit_render : forall fuel w t st,
  Forall (PIP.agree_outside_super w) (PIP.tr (PI.render_sync fuel w t st)) ->
  PI.erase_run (PI.render_async fuel w t st) = PI.erase_run (PI.render_sync fuel w t st).
Proof. exact PIP.inherit_async_eq. Qed.
Print Assumptions C01_inherit_render.

(* the property's inputs: data objects without asynchronous item access, loaders that return the same source through
   get_source and get_source_async (C01_get_source below for the built-in ones) *)
Theorem C01_inherit_render_plain : forall fuel w t st,
  (forall x, PI.w_acc w PI.Async x = PI.w_acc w PI.Sync x) -> (forall n, PI.w_ld w PI.Async n = PI.w_ld w PI.Sync n) ->
  PI.erase_run (PI.render_async fuel w t st) = PI.erase_run (PI.render_sync fuel w t st).
Proof. exact PIP.inherit_async_eq_plain. Qed.
Print Assumptions C01_inherit_render_plain.

(* _build_block_stacks_async = _build_block_stacks in any context and for any block stacks already present: same
   chain of parents loaded in the same order, same stacks and parent links, same error (circular extends, too many
   extends, duplicate block, template not found) at the same point *)
Theorem C01_inherit_build_stacks : forall fuel w c t st,
  Forall (PIP.agree w) (PIP.tr (PI.build_stacks_sync fuel w c t st)) ->
  PI.erase_run (PI.build_stacks_async fuel w c t st) = PI.erase_run (PI.build_stacks_sync fuel w c t st).
Proof. exact PIP.build_stacks_async_eq. Qed.
Print Assumptions C01_inherit_build_stacks.

(* which API every event goes through: render uses the synchronous one only ... *)
Theorem C01_inherit_sync_modes : forall fuel w t st, Forall PIP.sync_mode_ok (PIP.tr (PI.render_sync fuel w t st)).
Proof. exact PIP.sync_modes. Qed.
Print Assumptions C01_inherit_sync_modes.

(* ... render_async the asynchronous one everywhere EXCEPT inside block.super, where templates are obtained with
   get_template and items are read with __getitem__ even though render_async is running *)
Theorem C01_inherit_async_modes : forall fuel w t st, Forall PIP.async_mode_ok (PIP.tr (PI.render_async fuel w t st)).
Proof. exact PIP.async_modes. Qed.
Print Assumptions C01_inherit_async_modes.

(* What that implies, against a render_async whose block.super awaits render_async of the parent block (ra_full: not the
   code, the yardstick): the two are indistinguishable under the guard that the APIs agree on what is reached
   INSIDE block.super -- no item that reads differently when awaited, no template only the asynchronous loader has.
   _partial: the unguarded statement is refuted below; objects with __getitem_async__ are outside the property. *)
Theorem C01_super_sync_in_async_partial : forall fuel w t st,
  Forall (PIP.agree_inside_super w) (PIP.tr (PI.render_async fuel w t st)) ->
  PI.erase_run (PI.render_async fuel w t st) = PI.erase_run (PI.render_async_full fuel w t st).
Proof. exact PIP.super_sync_in_async. Qed.
Print Assumptions C01_super_sync_in_async_partial.

(* witness: under render_async the same item reads 1 (awaited) in the child block and 0 (not awaited) in the parent
   block reached through block.super *)
Theorem C01_super_sync_in_async_refuted :
  PI.out_of (PIP.tr (PI.render_async 20 PIP.wit_world PIP.wit_child PI.store0)) = [PI.OVal PI.Async PIP.kx; PI.OVal PI.Sync PIP.kx] /\
  PI.erase_run (PI.render_async 20 PIP.wit_world PIP.wit_child PI.store0) <>
  PI.erase_run (PI.render_async_full 20 PIP.wit_world PIP.wit_child PI.store0).
Proof. exact PIP.super_sync_in_async_guard_needed. Qed.
Print Assumptions C01_super_sync_in_async_refuted.

(* witness: a template only get_source_async finds, included from a parent block: found when render_async renders the
   block directly, TemplateNotFoundError when the block is reached through block.super *)
Theorem C01_super_loads_synchronously_refuted :
  fst (fst (PI.render_async 20 PIP.wit2_world PIP.wit2_child PI.store0)) = PI.Fail ENotFound /\
  fst (fst (PI.render_async_full 20 PIP.wit2_world PIP.wit2_child PI.store0)) = PI.Val tt /\
  fst (fst (PI.render_async 20 PIP.wit2_world [PI.NBlock (PI.ilit "c") false [PI.NInclude (PI.ilit "p")]] PI.store0)) = PI.Val tt.
Proof. exact PIP.super_loads_synchronously. Qed.
Print Assumptions C01_super_loads_synchronously_refuted.

(* the guard of C01_inherit_render is needed: an object whose items read differently when awaited (excluded by the
   property) makes render and render_async differ already outside block.super *)
Theorem C01_inherit_render_refuted :
  PI.erase_run (PI.render_async 20 PIP.wit_world PIP.wit_child PI.store0) <>
  PI.erase_run (PI.render_sync 20 PIP.wit_world PIP.wit_child PI.store0).
Proof. exact PIP.inherit_async_eq_guard_needed. Qed.
Print Assumptions C01_inherit_render_refuted.

(* the fully asynchronous render agrees with render when the APIs agree on everything reached *)
Theorem C01_inherit_full_async : forall fuel w t st,
  Forall (PIP.agree w) (PIP.tr (PI.render_sync fuel w t st)) ->
  PI.erase_run (PI.render_async_full fuel w t st) = PI.erase_run (PI.render_sync fuel w t st).
Proof. exact PIP.full_async_eq. Qed.
Print Assumptions C01_inherit_full_async.

Example C01_inherit_guards_example :
  Forall (PIP.agree_outside_super PIP.plain_world) (PIP.tr (PI.render_sync 20 PIP.plain_world PIP.wit_child PI.store0)) /\
  Forall (PIP.agree_inside_super PIP.plain_world) (PIP.tr (PI.render_async 20 PIP.plain_world PIP.wit_child PI.store0)) /\
  PI.out_of (PIP.tr (PI.render_async 20 PIP.plain_world PIP.wit_child PI.store0)) = [PI.OVal PI.Async PIP.kx; PI.OVal PI.Sync PIP.kx].
Proof. exact PIP.guards_hold. Qed.

(* ===============================================================================================================
   From a name to a bound template (PairLoad.v): ChoiceLoader.get_source / get_source_async (nested to any depth),
   FileSystemLoader.get_source / get_source_async, DictLoader and BaseLoader's default, BaseLoader.load / load_async,
   Environment.get_template / get_template_async, Environment.analyze_tags / analyze_tags_async. *)
Module PL := PairLoad.
Module PLP := PairLoad_Proofs.

Theorem C01_get_source : forall l name, PL.get_source_async l name = PL.get_source_sync l name.
Proof. exact PLP.get_source_async_eq. Qed.
Print Assumptions C01_get_source.

(* the same template record -- name, path, source, globals (environment globals under the globals argument), front
   matter -- or the same error (not found, syntax error of the source) *)
Theorem C01_get_template : forall e name g, PL.get_template_async e name g = PL.get_template_sync e name g.
Proof. exact PLP.get_template_async_eq. Qed.
Print Assumptions C01_get_template.

Theorem C01_analyze_tags : forall e name, PL.analyze_tags_async e name = PL.analyze_tags_sync e name.
Proof. exact PLP.analyze_tags_async_eq. Qed.
Print Assumptions C01_analyze_tags.

(* the model tells a ChoiceLoader copy apart that gives up after its first loader *)
Theorem C01_choice_first_only_refuted :
  exists ls name, PL.choice_first_only PL.get_source_async ls name <> PL.get_source_sync (PL.LChoice ls) name.
Proof. exact PLP.choice_first_only_refuted. Qed.
Print Assumptions C01_choice_first_only_refuted.

(* what both copies bind: the globals argument over the environment's globals ... *)
Theorem C01_make_globals_lookup : forall e g x,
  alookup x (PL.make_globals e g) =
  match g with
  | Some d => match alookup x (rev d) with Some v => Some v | None => alookup x (PL.e_globals e) end
  | None => alookup x (PL.e_globals e)
  end.
Proof. exact PLP.make_globals_lookup. Qed.
Print Assumptions C01_make_globals_lookup.

(* ... and the template's name is the last component of its path through the asynchronous API too *)
Theorem C01_loaded_name : forall e name g t, PL.get_template_async e name g = Ok t -> PL.t_name t = PL.basename (PL.t_path t).
Proof. exact PLP.loaded_name. Qed.
Print Assumptions C01_loaded_name.

(* One caching loader (the model of CachingLoaderMixin of C23), any history of loads, edits and deletions: which API
   each load goes through does not change any template or error returned -- cache hits, misses, reloads, evictions and
   copies bound to other globals included -- provided get_source_async hands out a plain up-to-date callable. *)
Theorem C01_caching_api_mix : forall c, CachingLoader.awaitable_uptodate c = false -> forall st rs rs',
  map PLP.sync_req rs = map PLP.sync_req rs' ->
  CachingLoader.run CachingLoader.fixed c (CachingLoader.init c st) rs =
  CachingLoader.run CachingLoader.fixed c (CachingLoader.init c st) rs'.
Proof. exact PLP.api_mix_irrelevant. Qed.
Print Assumptions C01_caching_api_mix.

(* without that (FileSystemLoader.get_source_async as found): cached through get_template_async, the next get_template
   raises LiquidError *)
Theorem C01_caching_api_mix_refuted :
  PLP.mix_run CachingLoader.Async CachingLoader.Sync <> PLP.mix_run CachingLoader.Sync CachingLoader.Sync /\
  nth_error (PLP.mix_run CachingLoader.Async CachingLoader.Sync) 1 = Some (CachingLoader.RE ELiquid).
Proof. exact PLP.api_mix_awaitable_refuted. Qed.
Print Assumptions C01_caching_api_mix_refuted.

(* ===============================================================================================================
   Static analysis (PairAnalyze.v): analyze._visit over the generators of Node.children against analyze_async._visit
   over the awaited lists of Node.children_async. *)
Module PA := PairAnalyze.
Module PAP := PairAnalyze_Proofs.

(* the two walks append the same entries to tags / variables / globals / locals in the same order, load the same
   templates in the same order, stop at the same TemplateNotFoundError and leave the same `seen` map, scopes and
   static-context bindings, for every template, include_partials flag and starting state *)
Theorem C01_analyze_walk : forall w, (forall n, PA.aw_ld w PA.AAsync n = PA.aw_ld w PA.ASync n) ->
  forall fuel ip name t st,
  PA.werase_run (PA.analyze_async fuel w ip name t st) = PA.werase_run (PA.analyze_sync fuel w ip name t st).
Proof. exact PAP.analyze_async_eq. Qed.
Print Assumptions C01_analyze_walk.

(* include_partials=False: neither walk loads anything *)
Theorem C01_analyze_no_partials : forall fuel w name t st,
  Forall PAP.not_load (PAP.wtr (PA.analyze_sync fuel w false name t st)) /\
  Forall PAP.not_load (PAP.wtr (PA.analyze_async fuel w false name t st)).
Proof. exact PAP.no_partials_no_loads. Qed.
Print Assumptions C01_analyze_no_partials.

(* each walk reaches the loader through its own API only *)
Theorem C01_analyze_walk_modes : forall fuel w ip name t st,
  Forall (PAP.loads_through PA.ASync) (PAP.wtr (PA.analyze_sync fuel w ip name t st)) /\
  Forall (PAP.loads_through PA.AAsync) (PAP.wtr (PA.analyze_async fuel w ip name t st)).
Proof. exact PAP.walk_modes. Qed.
Print Assumptions C01_analyze_walk_modes.

(* the model tells a copy apart that awaits the children of a partial before it looks the partial up in `seen` *)
Theorem C01_analyze_eager_refuted :
  PA.ao_loads (PA.aobserve (PA.analyze_async 10 PAP.wit_aw true (PA.alit "root") PAP.wit_root PA.ws0)) = [(PA.AAsync, PA.alit "p", true)] /\
  PA.ao_loads (PA.aobserve (PA.analyze_sync 10 PAP.wit_aw true (PA.alit "root") PAP.wit_root PA.ws0)) = [(PA.ASync, PA.alit "p", true)] /\
  PA.werase_run (PAP.analyze_eager 10 PAP.wit_aw true (PA.alit "root") PAP.wit_root PA.ws0) <>
  PA.werase_run (PA.analyze_sync 10 PAP.wit_aw true (PA.alit "root") PAP.wit_root PA.ws0).
Proof. exact PAP.eager_children_refuted. Qed.
Print Assumptions C01_analyze_eager_refuted.

(* The code as found identified an inline snippet by id(), the address of a node object.  Node objects die with the
   template load that parsed them and their addresses are handed out again, so the result depended on the memory
   allocator: with one legal allocation the walk recognises the snippet of a partial loaded for the third time as seen,
   with another it does not -- analyze() and analyze_async() of one template, whose allocation patterns differ, report
   different results.  Repaired (_snippet_key: source text and position); C01_analyze_walk is about the repaired code,
   where the identity is a function of the input. *)
Theorem C01_analyze_snippet_identity_refuted :
  PA.ao_globals (PA.aobserve (PA.analyze_sync 10 (PAP.old_world PAP.addr_reused) true (PA.alit "root") PAP.old_root PA.ws0)) <>
  PA.ao_globals (PA.aobserve (PA.analyze_async 10 (PAP.old_world PAP.addr_fresh) true (PA.alit "root") PAP.old_root PA.ws0)) /\
  PA.ao_globals (PA.aobserve (PA.analyze_sync 10 (PAP.old_world PAP.addr_reused) true (PA.alit "root") PAP.old_root PA.ws0)) <>
  PA.ao_globals (PA.aobserve (PA.analyze_sync 10 (PAP.old_world PAP.addr_fresh) true (PA.alit "root") PAP.old_root PA.ws0)).
Proof. exact PAP.snippet_identity_by_address_refuted. Qed.
Print Assumptions C01_analyze_snippet_identity_refuted.

Example C01_analyze_snippet_by_position_example :
  PA.ao_globals (PA.aobserve (PA.analyze_sync 10 (PAP.old_world PA.by_position) true (PA.alit "root") PAP.old_root PA.ws0)) =
    [(PA.alit "g", [(PA.alit "p", 11%N)])].
Proof. exact (proj1 PAP.snippet_identity_by_position). Qed.
