(* C02 -- Only Liquid errors escape parsing and rendering.  Property theorems only.
   The model (ExnFlow.v) describes values by CLASS (what the Python primitives do with them), the conversion helpers and
   filter bodies by the exception classes they raise, and the decorators, Filter.evaluate and the per-node handler of
   render_with_context by the classes they convert.  [all_fixed] is the tree with the proposed repairs applied. *)
From LiquidVerif Require Import Prelude ExnFlow ExnFlow_Proofs.
Local Open Scope Z_scope.

(* Parsing: whatever exception the lexer or a tag parser raises, from_string lets only a LiquidError out. *)
Theorem C02_parse_contained : forall e, is_liquid (from_string_handler e) = true.
Proof. destruct e; reflexivity. Qed.
Print Assumptions C02_parse_contained.

(* Rendering, full strength: for EVERY modelled site (filter or tag), EVERY left value and argument list (any classes, any
   integer payloads, lists and hashes of any size and nesting), every measured primitive outcome, every tolerance mode, sync
   or async: if an exception that is not a LiquidError escapes, it is the ValueError of the int-to-text digit limit.
   No TypeError, OverflowError, IndexError, KeyError, AssertionError, decimal error or UnicodeError escapes. *)
Theorem C02_only_digit_limit_escapes : forall p t async_ s v args e,
  observe (render_site all_fixed p t async_ s v args) = OForeign e -> e = EValueError.
Proof.
  intros p t a s v args e H.
  assert (Hall : errs_in (LV true) (do r <- eval_site all_fixed p a s v args; to_liquid_string r)).
  { apply render_errs; [apply NH_true|apply Forall_NH_true|intros; apply NH_true]. }
  destruct (observe_node_foreign _ _ _ _ H Hall) as [Hin He].
  unfold LV in Hin. rewrite He in Hin. destruct e; try discriminate Hin. reflexivity.
Qed.
Print Assumptions C02_only_digit_limit_escapes.

(* The property itself, under the exact guard of the recorded finding: when no int of more than 4300 digits occurs in the
   values or in the value the expression produces, nothing but a LiquidError escapes.  (_partial: the unguarded statement is
   refuted below.) *)
Theorem C02_contained_partial : forall p t async_ s v args,
  has_huge v = false -> Forall (fun a => has_huge a = false) args ->
  (forall r, eval_site all_fixed p async_ s v args = Ok r -> has_huge r = false) ->
  forall e, observe (render_site all_fixed p t async_ s v args) <> OForeign e.
Proof.
  intros p t a s v args Hv Ha Hr e H.
  assert (Hall : errs_in (LV false) (do r <- eval_site all_fixed p a s v args; to_liquid_string r)).
  { apply render_errs; [apply NH_trivial, Hv| |intros r E; apply NH_trivial, (Hr r E)].
    eapply Forall_impl; [|exact Ha]. apply NH_trivial. }
  destruct (observe_node_foreign _ _ _ _ H Hall) as [Hin He].
  unfold LV in Hin. rewrite He in Hin. discriminate Hin.
Qed.
Print Assumptions C02_contained_partial.

(* The unguarded statement is false of the repaired tree: output of a 4301-digit int; the product of two 2228-digit ints
   (no huge input, LAX mode); a huge int inside an array given as a filter argument (WARN mode, async). *)
Theorem C02_contained_refuted :
  observe (render_site all_fixed p_plain Strict false SOutput (VInt huge_bound) []) = OForeign EValueError /\
  (let x := VInt (2 ^ 7400) in
   has_huge x = false /\ observe (render_site all_fixed p_plain Lax false STimes x [x]) = OForeign EValueError) /\
  observe (render_site all_fixed p_plain Warn true (SStrTotal 1 1) (txt 1 3) [VList [VInt (- huge_bound)]]) = OForeign EValueError.
Proof. split; [|split; [intro x; split|]]; vm_compute; reflexivity. Qed.
Print Assumptions C02_contained_refuted.

(* Tolerance modes decide only what happens to Liquid errors: with any set of repairs, a foreign exception escapes in one
   mode iff it escapes in every mode ... *)
Theorem C02_modes_agree_on_foreign : forall fx p t t' async_ s v args e,
  observe (render_site fx p t async_ s v args) = OForeign e <-> observe (render_site fx p t' async_ s v args) = OForeign e.
Proof.
  intros. unfold render_site. rewrite !observe_node. destruct (bind _ _) as [u|x|]; [tauto| |tauto].
  destruct (is_liquid x); [|tauto]. destruct t, t'; split; discriminate.
Qed.
Print Assumptions C02_modes_agree_on_foreign.

(* ... and WARN / LAX let no Liquid error out. *)
Theorem C02_lax_suppresses_liquid : forall fx p t async_ s v args,
  t <> Strict -> observe (render_site fx p t async_ s v args) <> OLiquid.
Proof.
  intros fx p t a s v args Ht. unfold render_site. rewrite observe_node. destruct (bind _ _) as [u|x|]; try discriminate.
  destruct (is_liquid x); [|discriminate]. destruct t; [contradiction|discriminate|discriminate].
Qed.
Print Assumptions C02_lax_suppresses_liquid.

(* The model uses no fuel: it never answers OutOfFuel. *)
Theorem C02_never_out_of_fuel : forall p t async_ s v args, observe (render_site all_fixed p t async_ s v args) <> OFuel.
Proof.
  intros p t a s v args H. unfold render_site in H. rewrite observe_node in H.
  pose proof (render_errs true p a s v args (NH_true v) (Forall_NH_true args) (fun r _ => NH_true r)) as Hall.
  destruct (bind _ _) as [u|x|]; [discriminate| |exact Hall]. destruct (is_liquid x); [destruct t|]; discriminate.
Qed.
Print Assumptions C02_never_out_of_fuel.

(* Each of the twelve repairs is needed (the behaviour before it is refuted): for every repair k there is a site and values
   with no huge int such that the tree with every repair but k lets a foreign exception out in all three modes, while the
   fully repaired tree does not.  The witnesses are listed in ExnFlow_Proofs.repair_witnesses. *)
Theorem C02_unrepaired_refuted :
  forallb witness_ok repair_witnesses = true /\
  forallb (fun k => existsb (fun w => Nat.eqb (fst w) k) repair_witnesses) (seq 0 12) = true.
Proof. split; vm_compute; reflexivity. Qed.
Print Assumptions C02_unrepaired_refuted.

(* non-vacuity: the guard of C02_contained_partial holds for the text nan given to ceil, which reaches a converted
   ValueError: a Liquid error in STRICT, suppressed in LAX *)
Example C02_partial_nonvacuous :
  let v := VStr (SFloat FNan) 3 in
  has_huge v = false /\ (forall r, eval_site all_fixed p_plain false SCeil v [] = Ok r -> has_huge r = false) /\
  observe (render_site all_fixed p_plain Strict false SCeil v []) = OLiquid /\
  observe (render_site all_fixed p_plain Lax false SCeil v []) = OOk.
Proof.
  intro v. split; [reflexivity|]. split; [|split; vm_compute; reflexivity].
  intros r H. vm_compute in H. discriminate.
Qed.

(* reading aid: sum over an array of any length is one of the sites the induction covers *)
Example C02_sum_example :
  run_exn {| c_site := SSum; c_tol := Strict; c_async := false; c_prims := p_plain;
             c_v := VList [VInt 1; VStr (SFloat (FFin 1)) 3; VStr (SOther 1) 3; VFloat FPInf; VList [VFloat FNInf]]; c_args := [] |} = OLiquid.
Proof. vm_compute. reflexivity. Qed.
