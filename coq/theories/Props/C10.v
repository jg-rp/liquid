(* C10 — Literal text, raw blocks, comments and whitespace control.  Property theorems only.
   Model: Lex.v (scanner of liquid/lex.py after the fixes C10-raw-endraw-marker, C10-final-newline and
   C11-unclosed-markup-custom-delimiters, plus the
   parser/renderer for the literal fragment); specification: LexSpec.v (templates as texts alternating with markup,
   spec_render).  A template is a list of (text, markup) pairs and a final text; [build d tp] is its source. *)
From Coq Require Import String.
From LiquidVerif Require Import Prelude Lex LexSpec Lex_Proofs Lex_Match_Proofs Lex_C10_Proofs LexOcc Lex_Occ_Proofs MacroArgs.
Local Open Scope string_scope. Local Open Scope list_scope.

(* For all delimiters d and all templates tp, tokenizing, parsing and rendering the source gives exactly the documented
   rendering — every text verbatim except that it is left-stripped iff the closing delimiter before it carries '-' and
   right-stripped iff the opening delimiter after it carries '-'; output/echo write their string; a raw block writes its
   body; comments, doc, shorthand and inline comments write nothing — under the OCCURRENCE guard [no_collision_occ]
   (LexOcc.v), which is what "the text does not collide with the delimiters" means exactly:
     * a text may contain ANY characters, provided that at no position inside it an opening delimiter (tag start,
       statement start, comment start when shorthand comments are on) is a prefix of the remaining source; this counts an
       occurrence completed by the following markup (text "{" before "{% .. %}" forms "{{%": excluded; "{" before " x",
       "{ {", "%}", "}}", "a-" are all fine);
     * the quoted string of an output/echo and the body of an inline comment may contain anything, provided the closing
       sub-pattern  \s*-?<end delimiter>  matches at no position inside it (so "}" is fine in {{ '}' }}, and a body
       must not end in whitespace or '-' directly before the delimiter, where the regex would take it as the marker);
     * a raw / doc body may contain anything (complete markup included) except a position at which its own closing tag
       ( {%[-] endraw [-]%} / enddoc ) matches; a shorthand comment body anything except a position where  -?#}  matches;
     * the body of a block comment, which the lexer scans again, is a text in the above sense (bodies containing complete
       markup, and the inner lines of liquid tags, remain covered by the correspondence run only).
   Proof: the search lemma (no match at any position of a prefix => find_first lands exactly at its end;
   find_first_nomatch states it for the guard's [nomatch]) applied to each closing pattern, likewise the content look-ahead,
   one match_at lemma per shape, induction over the segments with the strip flag generalised. *)
Theorem C10_whitespace_control : forall d tp, no_collision_occ d tp = true ->
  render_src d (build d tp) = ROut (spec_render tp).
Proof. exact whitespace_control. Qed.
Print Assumptions C10_whitespace_control.

(* the guard position by position: exactly "no opening delimiter starts inside the text" *)
Theorem C10_text_guard_exact : forall d t after, clean d t after = true <->
  (forall j, j < length t -> delim_at d (skipn j (t ++ after)) = None).
Proof. exact clean_spec. Qed.
Print Assumptions C10_text_guard_exact.

(* every template admitted by the alphabet guard [no_collision] (texts over characters that cannot begin an opening
   delimiter) is admitted by the occurrence guard, so the theorem under the alphabet guard is a corollary *)
Theorem C10_occurrence_guard_subsumes_alphabet_guard : forall d tp,
  no_collision d tp = true -> no_collision_occ d tp = true.
Proof. exact no_collision_occ_of_alphabet. Qed.
Print Assumptions C10_occurrence_guard_subsumes_alphabet_guard.

Theorem C10_whitespace_control_partial : forall d tp, no_collision d tp = true ->
  render_src d (build d tp) = ROut (spec_render tp).
Proof. intros d tp H. apply C10_whitespace_control, C10_occurrence_guard_subsumes_alphabet_guard, H. Qed.
Print Assumptions C10_whitespace_control_partial.

(* text outside markup is output verbatim: any text in which no opening delimiter occurs *)
Theorem C10_text_verbatim : forall d t, d_ok d = true -> clean d t [] = true -> render_src d t = ROut t.
Proof. exact text_verbatim_occ. Qed.
Print Assumptions C10_text_verbatim.

(* the body of a raw block is output verbatim whatever the four markers are and whatever markup it contains; only the
   texts around it are stripped, the text after it according to the marker of ENDRAW's closing delimiter *)
Theorem C10_raw_verbatim : forall d t1 l1 w1 w2 r1 body l2 w3 w4 r2 t2,
  no_collision_occ d ([(t1, MkRaw l1 w1 w2 r1 body l2 w3 w4 r2)], t2) = true ->
  render_src d (t1 ++ msrc d (MkRaw l1 w1 w2 r1 body l2 w3 w4 r2) ++ t2)
  = ROut (strip_text false l1 t1 ++ body ++ strip_text r2 false t2).
Proof. exact raw_verbatim_occ. Qed.
Print Assumptions C10_raw_verbatim.

(* comment, doc, shorthand-comment and inline-comment bodies are never output *)
Theorem C10_comments_silent : forall d t1 m t2, silent m = true -> no_collision_occ d ([(t1, m)], t2) = true ->
  render_src d (t1 ++ msrc d m ++ t2) = ROut (strip_text false (opens m) t1 ++ strip_text (closes m) false t2).
Proof. exact comments_silent_occ. Qed.
Print Assumptions C10_comments_silent.

(* reading of the specification: without any hyphen nothing is removed ... *)
Theorem C10_no_hyphen_no_strip : forall segs tail, no_markers segs = true ->
  spec_from false segs tail = plain_concat segs tail.
Proof.
  intros segs tail. induction segs as [|[t m] segs IH]; simpl; auto. intros H.
  apply andb_true_iff in H as [H Hr]. apply andb_true_iff in H as [Ho Hc].
  apply negb_true_iff in Ho, Hc. rewrite Ho, Hc. unfold strip_text at 1. rewrite IH; auto.
Qed.
Print Assumptions C10_no_hyphen_no_strip.

(* ... and a hyphen removes ALL the whitespace: what is removed is whitespace only and what remains starts with a
   non-space character (or is empty) *)
Theorem C10_strip_removes_all_whitespace : forall t,
  exists w, t = w ++ lstrip_s t /\ all_space w = true /\ stops (lstrip_s t).
Proof. exact lstrip_spec. Qed.
Print Assumptions C10_strip_removes_all_whitespace.

(* the same on the other side: what a hyphen on an OPENING delimiter removes from the END of the preceding text is
   whitespace only, and what remains ends with a non-space character (or is empty) *)
Theorem C10_rstrip_removes_all_whitespace : forall t,
  exists w, t = rstrip_s t ++ w /\ all_space w = true /\ stops (rev (rstrip_s t)).
Proof. exact rstrip_spec. Qed.
Print Assumptions C10_rstrip_removes_all_whitespace.

(* stripping never removes more on a second pass: a stripped text has no whitespace left on that side *)
Theorem C10_strip_idempotent : forall t, lstrip_s (lstrip_s t) = lstrip_s t /\ rstrip_s (rstrip_s t) = rstrip_s t.
Proof. intros t. split; [exact (lstrip_idem t) | exact (rstrip_idem t)]. Qed.
Print Assumptions C10_strip_idempotent.

(* ---- the two defects of the unrepaired lexer, as witnesses against the same statement for [render_src_old] ---- *)
(* {% raw %} x {% endraw -%}  y : endraw's marker ignored (the old code uses the raw tag's own marker) *)
Definition raw_witness : template :=
  ([([], MkRaw false (lit " ") (lit " ") false (lit " x ") false (lit " ") (lit " ") true)], lit "  y").
Theorem C10_old_raw_marker_refuted :
  no_collision default_delims raw_witness = true /\
  render_src_old default_delims (build default_delims raw_witness) <> ROut (spec_render raw_witness).
Proof. split; [vm_compute; reflexivity | vm_compute; discriminate]. Qed.
Print Assumptions C10_old_raw_marker_refuted.

(* {{ 'x' -}}a<newline> : the final newline, split off by `$`, is stripped by the stale lstrip flag *)
Definition newline_witness : template :=
  ([([], MkOut false (lit " ") 39%N (lit "x") (lit " ") true)], lit "a" ++ [10%N]).
Theorem C10_old_final_newline_refuted :
  no_collision default_delims newline_witness = true /\
  render_src_old default_delims (build default_delims newline_witness) <> ROut (spec_render newline_witness).
Proof. split; [vm_compute; reflexivity | vm_compute; discriminate]. Qed.
Print Assumptions C10_old_final_newline_refuted.

(* non-vacuity: the default delimiters and a template with every markup kind satisfy the hypotheses *)
Example C10_default_delims_ok : d_ok default_delims = true.
Proof. reflexivity. Qed.

Definition sample : template :=
  ([(lit " a ", MkRaw false (lit " ") (lit " ") false (lit " x ") true [] [] true);
    (lit "  ", MkOut true (lit " ") 39%N (lit "hi") [] true);
    (lit " b ", MkComment true [] [] false (lit "zz") false [] [] true);
    ([], MkShort true (lit "s") false);
    (lit " q", MkInline false [] [] (lit "a b") (lit " ") true);
    (lit " ", MkEcho true (lit " ") (lit " ") 34%N (lit "e") [] false);
    ([], MkDoc false [] [] true (lit " d ") false [] [] false)], lit "  end").
Example C10_sample_ok : no_collision default_delims sample = true.
Proof. vm_compute. reflexivity. Qed.
Example C10_sample_render :
  render_src default_delims (build default_delims sample) = ROut (lit " a  x hib qe  end").
Proof. vm_compute. reflexivity. Qed.
(* markup-like fragments in texts and markup inside raw/doc bodies fall under the theorem, though not under the alphabet guard *)
Definition fragments : template :=
  ([(lit "{ { ", MkRaw false (lit " ") (lit " ") true (lit "{{ y }} {% if %} {#") false [] [] false);
    (lit "%} }}", MkOut false (lit " ") 39%N (lit "}") [] true);
    (lit " a- { ", MkDoc true [] [] false (lit "{% doc %} #}") false [] [] false);
    (lit "#} %", MkShort false (lit " { ") false)], lit " { ").
Example C10_fragments_ok : no_collision_occ default_delims fragments = true /\ no_collision default_delims fragments = false.
Proof. split; vm_compute; reflexivity. Qed.
Example C10_fragments_render :
  render_src default_delims (build default_delims fragments) = ROut (lit "{ { {{ y }} {% if %} {#%} }}}a- {#} % { ").
Proof. vm_compute. reflexivity. Qed.
(* the boundary case: "{" directly before a tag would read as "{{" + "%..." *)
Example C10_boundary_excluded :
  clean default_delims (lit "{") (lit "{% # c %}") = false /\ clean default_delims (lit "{") (lit " x") = true.
Proof. split; vm_compute; reflexivity. Qed.
Example C10_repaired_raw : render_src default_delims (build default_delims raw_witness) = ROut (lit " x y").
Proof. vm_compute. reflexivity. Qed.
