(* C16 — Strict undefined types only refine the default behaviour.  The property's theorems, proved from the lemmas of
   Scope_Undef_Proofs. *)
From Coq Require Import String.
From LiquidVerif Require Import Prelude PyPrims Scope Scope_Proofs Scope_Undef_Proofs.
Local Open Scope string_scope. Local Open Scope list_scope.

(* if rendering succeeds with any undefined type (StrictUndefined, FalsyStrictUndefined, StrictDefaultUndefined),
   the default undefined type gives the same output — for every template, partials, data and global layers
   (strict tolerance mode: in lax mode errors are swallowed by design, see Example C16_lax_mode_swallows) *)
Theorem C16_refinement : forall k u out,
  k_mode k = MStrict -> run_case (with_uk k u) = Ok out -> run_case (with_uk k UDefault) = Ok out.
Proof.
  intros k u out Hm H. unfold run_case, run_top, case_env, init_ctx, top_globals in *. destruct k as [md uk0 fg ld a m t e body].
  cbn [with_uk k_mode k_uk k_flags k_loader k_args k_matter k_tglobals k_eglobals k_body] in *. subst md.
  match type of H with finish ?X = _ => destruct X as [c o s|] eqn:E; [|discriminate] end.
  destruct s; try discriminate.
  rewrite (covers_done _ _ _ _ _ (covers_run_template _ _ (exec_covers run_fuel u ld no_filters no_filters_refine) false false body _) E I).
  exact H.
Qed.
Print Assumptions C16_refinement.

(* the simulation behind it, node by node: every run that does not end in an exception is reproduced, with the
   same context, text and completion (also break / continue), by the default undefined type *)
Theorem C16_simulation : forall fuel uk ld ft, filters_refine ft -> forall n c c' o s,
  exec fuel (Env MStrict uk ld ft) n c = Done c' o s -> no_raise s ->
  exec fuel (Env MStrict UDefault ld ft) n c = Done c' o s.
Proof.
  intros fuel uk ld ft Hft n c c' o s H Hs. exact (covers_done _ _ _ _ _ (exec_covers fuel uk ld ft Hft n c) H Hs).
Qed.
Print Assumptions C16_simulation.

(* StrictUndefined: outputting a missing variable (with or without filters) raises UndefinedError ... *)
Theorem C16_strict_raises_on_output : forall f md ld ft c e fs,
  eval_expr UStrict c e = Ok VUndef -> (forall flt, hd_error fs = Some flt -> concrete flt) ->
  exec (S f) (Env md UStrict ld ft) (NOut (FPlain e fs)) c = Done c [] (Raise EUndefined).
Proof.
  intros f md ld ft c e fs H Hc. rewrite exec_S. cbn [exec_step e_uk e_filters eval_fexpr]. rewrite H. cbn [bind].
  destruct fs as [|f0 fs]; [reflexivity|]. rewrite apply_filters_strict_undef by (apply Hc; reflexivity). reflexivity.
Qed.
Print Assumptions C16_strict_raises_on_output.

(* ... filtering it does, even if the result is only assigned ... *)
Theorem C16_strict_raises_on_filter : forall f md ld ft c x e flt fs,
  eval_expr UStrict c e = Ok VUndef -> concrete flt ->
  exec (S f) (Env md UStrict ld ft) (NAssign x (FPlain e (flt :: fs))) c = Done c [] (Raise EUndefined).
Proof.
  intros f md ld ft c x e flt fs H Hc. rewrite exec_S. cbn [exec_step e_uk e_filters eval_fexpr]. rewrite H. cbn [bind].
  rewrite apply_filters_strict_undef by exact Hc. reflexivity.
Qed.
Print Assumptions C16_strict_raises_on_filter.

(* ... iterating it does ... *)
Theorem C16_strict_raises_on_iterate : forall f md ld ft c x p body els,
  eval_path UStrict c p = Ok VUndef ->
  exec (S f) (Env md UStrict ld ft) (NFor x (IPath p) body els) c = Done c [] (Raise EUndefined).
Proof. intros f md ld ft c x p body els H. rewrite exec_S. cbn [exec_step e_uk eval_iter]. rewrite H. reflexivity. Qed.
Print Assumptions C16_strict_raises_on_iterate.

(* ... and comparing or testing it does (the first operand of the condition) *)
Theorem C16_strict_raises_on_compare : forall f md ld ft c cd th el,
  eval_expr UStrict c (atom_expr (cond_head cd)) = Ok VUndef ->
  exec (S f) (Env md UStrict ld ft) (NIf cd th el) c = Done c [] (Raise EUndefined).
Proof.
  intros f md ld ft c cd th el H. rewrite exec_S. cbn [exec_step e_uk].
  assert (E : eval_cond UStrict c cd = Err EUndefined)
    by (destruct cd; simpl in *; rewrite (strict_atom_raises _ _ H); reflexivity).
  rewrite E. reflexivity.
Qed.
Print Assumptions C16_strict_raises_on_compare.

(* a variable bound nowhere IS such an undefined value, under every undefined type: resolving never raises *)
Theorem C16_missing_variable_is_undefined : forall uk c x,
  resolve c x = None -> eval_expr uk c (EPath (Path x [])) = Ok VUndef.
Proof. intros uk c x H. simpl. unfold eval_path. simpl. rewrite H. reflexivity. Qed.
Print Assumptions C16_missing_variable_is_undefined.

(* which use of an undefined value each type permits *)
Theorem C16_use_table : forall uk g ft c,
  to_output uk VUndef = (if strict_kind uk then Err EUndefined else Ok []) /\
  items_of g uk VUndef = (if strict_kind uk then Err EUndefined else Ok []) /\
  apply_filter ft uk c FUpcase VUndef = (if strict_kind uk then Err EUndefined else Ok (VStr [])) /\
  apply_filter ft uk c FSize VUndef = (if strict_kind uk then Err EUndefined else Ok (VInt 0)) /\
  truthy uk VUndef = (if probe_raises uk then Err EUndefined else Ok false) /\
  (forall l, apply_filter ft uk c (FDefault l) VUndef = match uk with UStrict => Err EUndefined | _ => Ok (val_of_scalar l) end) /\
  (forall attr, apply_filter ft uk c (FHas attr None) VUndef = (if strict_kind uk then Err EUndefined else Ok (VBool false))) /\
  (forall l attr, has_filter uk (VList l) attr VUndef =
                  (if probe_raises uk then Err EUndefined else has_filter uk (VList l) attr VNil)).
Proof.
  intros uk g ft c.
  repeat split; intros; simpl; try (destruct (strict_kind uk); reflexivity);
    unfold has_filter; simpl; try (destruct (strict_kind uk); reflexivity); destruct (probe_raises uk); reflexivity.
Qed.
Print Assumptions C16_use_table.

(* the default undefined type never raises UndefinedError: not for a missing variable, not for a missing path, not
   anywhere in any template, in either tolerance mode *)
Theorem C16_default_never_raises : forall k, run_case (with_uk k UDefault) <> Err EUndefined.
Proof.
  intro k. unfold run_case, run_top, finish.
  assert (Hx : never_undef (exec run_fuel (case_env (with_uk k UDefault))))
    by (apply exec_default_never_undefined, no_filters_default_ok).
  pose proof (run_template_not_undef (k_mode (with_uk k UDefault)) false false _ (k_body (with_uk k UDefault)) (init_ctx (with_uk k UDefault)) Hx) as E.
  destruct (run_template _ _ _ _ _ _) as [c o s|]; [|discriminate].
  destruct s; try discriminate. intro H. inversion H; subst. apply E. reflexivity.
Qed.
Print Assumptions C16_default_never_raises.

Theorem C16_default_never_raises_node : forall fuel md ld ft, filters_default_ok ft -> forall n c c' o s,
  exec fuel (Env md UDefault ld ft) n c = Done c' o s -> s <> Raise EUndefined.
Proof.
  intros fuel md ld ft Hft n c c' o s H. exact (ends_done _ _ _ _ _ (exec_default_never_undefined fuel md ld ft Hft n c) H).
Qed.
Print Assumptions C16_default_never_raises_node.

(* ... and a path always evaluates *)
Theorem C16_default_path_total : forall c p, exists v, eval_path UDefault c p = Ok v.
Proof. exact eval_path_default_total. Qed.
Print Assumptions C16_default_path_total.

(* ---- filters in general ---- *)
(* the condition: C16_simulation (and with it the refinement) holds for EVERY table of abstract filters each of which
   returns under the default type whatever it returns under a strict type (filters_refine); C16_default_never_raises_node
   for every table whose filters never fail with UndefinedError under the default type.  A sufficient SHAPE: a guarded
   filter consults the undefined type only to decide whether an undefined left value / argument raises, and otherwise
   computes a fixed function of the values with undefined replaced by empty / nil *)
Theorem C16_guarded_filters_refine : forall rin rarg empty core,
  rin UDefault = false -> rarg UDefault = false ->
  (forall uk v args r, guarded rin rarg empty core uk v args = Ok r -> guarded rin rarg empty core UDefault v args = Ok r) /\
  ((forall v args, core v args <> Err EUndefined) -> forall v args, guarded rin rarg empty core UDefault v args <> Err EUndefined).
Proof.
  intros rin rarg empty core Hi Ha. split.
  - exact (guarded_refines rin rarg empty core Hi Ha).
  - intro Hc. exact (guarded_default_ok rin rarg empty core Hi Ha Hc).
Qed.
Print Assumptions C16_guarded_filters_refine.

(* the built-in `has` (with its is_undefined guard) is a guarded filter, for every input ... *)
Theorem C16_has_is_guarded : forall uk v attr w,
  has_filter uk v attr w =
  guarded strict_kind probe_raises (VList []) (fun v' ws => has_filter UDefault v' attr (hd VNil ws)) uk v [w].
Proof.
  intros uk v attr w. unfold guarded, has_filter.
  (* the value argument, whatever the items are *)
  assert (Hw : forall items,
            match w with
            | VUndef => if probe_raises uk then Err EUndefined else has_any attr_present attr items
            | VNil => has_any attr_present attr items
            | _ => has_any (fun x => py_eq x w) attr items
            end =
            if existsb is_undef [w] && probe_raises uk then Err EUndefined
            else match hd VNil (map undef_to_nil [w]) with
                 | VUndef => if probe_raises UDefault then Err EUndefined else has_any attr_present attr items
                 | VNil => has_any attr_present attr items
                 | _ => has_any (fun x => py_eq x (hd VNil (map undef_to_nil [w]))) attr items
                 end)
    by (intro items; destruct w; try reflexivity; simpl; destruct (probe_raises uk); reflexivity).
  (* the left value: undefined raises or is empty, anything else is itself under every type *)
  destruct v; try apply Hw. simpl. destruct (strict_kind uk); [reflexivity|apply Hw].
Qed.
Print Assumptions C16_has_is_guarded.

(* ... and refines the default type *)
Theorem C16_has_refines : forall uk v attr w r, has_filter uk v attr w = Ok r -> has_filter UDefault v attr w = Ok r.
Proof. exact has_filter_refines. Qed.
Print Assumptions C16_has_refines.

(* witness for the seeded variant without the guard: FalsyStrictUndefined renders, and not what the default type renders *)
Theorem C16_has_unguarded_refuted :
  exists v attr w r, has_filter_unguarded UFalsy v attr w = Ok r /\ has_filter_unguarded UDefault v attr w <> Ok r.
Proof.
  exists (VList [VDict [(slit "a", VBool false)]]), (slit "a"), VUndef, (VBool true). split; vm_compute; [reflexivity|discriminate].
Qed.
Print Assumptions C16_has_unguarded_refuted.

(* ---- non-vacuity and reading aids (tests) ---- *)
Definition ex_p (r : string) := Path (slit r) [].
Definition ex_case (u : ukind) : case :=
  Case MStrict u default_flags [] [(slit "d", VDict [(slit "a", VInt 1)])] [] [] []
    [NAssign (slit "v") (FPlain (EPath (ex_p "nosuch")) []);
     NOut (FPlain (EPath (ex_p "nosuch")) [FDefault (LStr (slit "dflt"))]);
     NIf (COr (CTruthy (EPath (Path (slit "d") [SKey Dot (KName (slit "a"))]))) (CAtom (CTruthy (EPath (ex_p "nosuch"))))) [NText (slit "t")] []].

(* a render that succeeds under StrictDefaultUndefined and FalsyStrictUndefined, fails under StrictUndefined *)
Example C16_refinement_example :
  run_case (ex_case UStrictDefault) = Ok (slit "dfltt") /\ run_case (ex_case UFalsy) = Ok (slit "dfltt") /\
  run_case (ex_case UDefault) = Ok (slit "dfltt") /\ run_case (ex_case UStrict) = Err EUndefined.
Proof. vm_compute. repeat split. Qed.

(* why strict tolerance mode is a hypothesis: lax mode swallows the UndefinedError and the render "succeeds" *)
Example C16_lax_mode_swallows :
  run_case lax_witness = Ok (slit ".") /\ run_case (with_uk lax_witness UDefault) = Ok (slit "f.").
Proof. split; vm_compute; reflexivity. Qed.

(* the two conditions are satisfiable: the table of the generated cases, and a table made of one guarded filter *)
Example C16_filter_conditions_satisfiable :
  filters_refine no_filters /\ filters_default_ok no_filters /\
  filters_refine (fun _ => guarded strict_kind probe_raises (VList []) (fun v _ => Ok v)).
Proof.
  split; [exact no_filters_refine|]. split; [exact no_filters_default_ok|].
  intros id uk v args r. apply guarded_refines; reflexivity.
Qed.

Example C16_has_example :
  let arr := VList [VDict [(slit "a", VInt 1)]; VDict [(slit "b", VBool false)]] in
  has_filter UDefault arr (slit "a") VUndef = Ok (VBool true) /\ has_filter UFalsy arr (slit "a") VUndef = Ok (VBool true) /\
  has_filter UStrict arr (slit "a") VUndef = Err EUndefined /\ has_filter UFalsy VUndef (slit "a") VNil = Err EUndefined /\
  has_filter UDefault arr (slit "b") (VBool false) = Ok (VBool true) /\ has_filter UDefault arr (slit "zz") VNil = Ok (VBool false).
Proof. vm_compute. repeat split. Qed.
