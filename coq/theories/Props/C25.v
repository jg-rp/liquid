(* C25 — Built-in filters honour their documented contracts.
   First part (Filters.v): truncate, truncatewords, split/join, sort, uniq, compact, reverse, concat, where/reject, integer
   arithmetic, default, size, slice, first/last on arrays.  Second part (Filters2.v): case and whitespace filters,
   strip_newlines, sort_natural, map, default and first/last on every value, and the number filters on ints and decimals
   against exact rational arithmetic (Coq's Q). *)
From Coq Require Import String Sorted Permutation QArith Qabs.
From LiquidVerif Require Import Prelude PyPrims Filters Filters_Proofs Filters2 Filters2_Proofs Filters2_Num_Proofs.
Local Open Scope Z_scope. Local Open Scope nat_scope. Local Open Scope string_scope. Local Open Scope list_scope.

(* truncate: unchanged when it fits; otherwise a prefix plus the ellipsis, no longer than max(limit, ellipsis) —
   for every string, every integer limit (negative included) and every ellipsis *)
Theorem C25_truncate : forall (s : str) (n : Z) (e : str),
  ((slen s <= n)%Z -> truncate_chars s n e = s) /\
  ((n < slen s)%Z -> exists p rest, truncate_chars s n e = p ++ e /\ s = p ++ rest /\
                                   (slen (p ++ e) <= Z.max n (slen e))%Z).
Proof. exact truncate_contract. Qed.
Print Assumptions C25_truncate.

(* the code before the fix violates both halves *)
Theorem C25_truncate_old_refuted :
  truncate_chars_old (lit "abc") 3 (lit "...") = lit "..." /\
  truncate_chars_old (lit "abcdefgh") 2 (lit "...") = lit "abcdefg...".
Proof. vm_compute. split; reflexivity. Qed.
Print Assumptions C25_truncate_old_refuted.

(* truncatewords keeps at most max(n,1) words *)
Theorem C25_truncatewords : forall (s : str) (n : Z) (e : str),
  let n' := Z.max n 1 in
  (n' < MAX_TRUNC_WORDS)%Z ->
  let kept := firstn (Z.to_nat n') (words s) in
  (Z.of_nat (length kept) <= n')%Z /\
  truncatewords s n e = join_str [32%N] kept ++ (if (Z.of_nat (length (words s)) <? n')%Z then [] else e).
Proof. exact truncatewords_contract. Qed.
Print Assumptions C25_truncatewords.

(* split then join with the same separator restores the string — under exactly the guard the code needs
   (the two excluded shapes are the recorded known findings) *)
Theorem C25_split_join_partial : forall s sep : str,
  s <> [] -> sep <> [] -> sep <> [32%N] -> s <> sep ->
  exists l, f_split (VStr s) (VStr sep) = FOk (VList (map VStr l)) /\
            f_join (VList (map VStr l)) (VStr sep) = FOk (VStr s).
Proof.
  intros s sep Hs Hsep Hsp Hne. exists (py_split s sep). split.
  - unfold f_split. cbn [string_arg py_str]. destruct sep as [|c sep']; [contradiction|].
    destruct s as [|d s']; [contradiction|].
    destruct (str_eqb_spec (d :: s') (c :: sep')); [contradiction|].
    destruct (str_eqb_spec (c :: sep') [32%N]); [contradiction|]. reflexivity.
  - unfold f_join. rewrite (as_sequence_map VStr) by (intro; exact I). cbn [py_str].
    rewrite map_map, (all_some_map _ (fun x => x)), map_id by reflexivity.
    rewrite split_join_roundtrip by exact Hsep. reflexivity.
Qed.
Print Assumptions C25_split_join_partial.

(* the full statement is false of the faithful model: the witnesses *)
Theorem C25_split_join_refuted :
  (exists l, f_split (VStr (lit "a  b")) (VStr (lit " ")) = FOk (VList l) /\ f_join (VList l) (VStr (lit " ")) = FOk (VStr (lit "a b"))) /\
  (f_split (VStr (lit "a")) (VStr (lit "a")) = FOk (VList []) /\ f_join (VList []) (VStr (lit "a")) = FOk (VStr [])).
Proof.
  split; [eexists; split; [vm_compute; reflexivity|vm_compute; reflexivity] | split; vm_compute; reflexivity].
Qed.
Print Assumptions C25_split_join_refuted.

(* sort on an array of ints: an ascending permutation *)
Theorem C25_sort : forall zs : list Z, 2 <= length zs ->
  exists zs', f_sort (VList (map VInt zs)) = FOk (VList (map VInt zs')) /\ Permutation zs' zs /\ StronglySorted Z.le zs'.
Proof.
  intros zs Hlen. exists (sort_by KInt zs). split; [|split].
  - rewrite (f_sort_compared _ _ (as_sequence_map VInt zs (fun _ => I))) by (rewrite map_length; exact Hlen).
    rewrite homogeneous_ints, sort_decorated. reflexivity.
  - apply sort_by_perm.
  - pose proof (sort_by_sorted KInt zs) as Hs.
    induction Hs as [|z r Hs IH Hf]; constructor; [exact IH|].
    eapply Forall_impl; [|exact Hf]. intros b Hb. exact (proj1 (Z.leb_le z b) Hb).
Qed.
Print Assumptions C25_sort.

(* the sort that sort and sort_natural run; stable: the items of each key keep their order *)
Theorem C25_sort_by_key : forall (A : Type) (key : A -> skey) (l : list A),
  Permutation (sort_by key l) l /\ StronglySorted (kle key) (sort_by key l) /\
  (forall k, filter (keq key k) (sort_by key l) = filter (keq key k) l).
Proof. intros. split; [apply sort_by_perm|split; [apply sort_by_sorted|intro; apply sort_by_stable]]. Qed.
Print Assumptions C25_sort_by_key.

(* uniq: every item of the result is an item of the input, and the result is no longer *)
Theorem C25_uniq : forall l seen,
  (forall x, memv x (uniq_go l seen) = true -> memv x l = true) /\ length (uniq_go l seen) <= length l.
Proof. intros l seen. split; [intro x; apply uniq_mem|apply uniq_length]. Qed.
Print Assumptions C25_uniq.

Theorem C25_compact : forall l x, In x (filter (fun v => negb (is_nil v)) l) <-> In x l /\ x <> VNil.
Proof.
  intros l x. rewrite filter_In. split; intros [H1 H2]; split; try assumption.
  - intro E. subst. discriminate.
  - destruct x; try reflexivity. contradiction.
Qed.
Print Assumptions C25_compact.

(* reverse, twice, is the identity; concat is list append (both for arrays that hold no array: sequence_filter flattens
   one level) *)
Theorem C25_reverse : forall l, (forall x, In x l -> match x with VList _ => False | _ => True end) ->
  exists r, f_reverse (VList l) = FOk (VList r) /\ f_reverse (VList r) = FOk (VList l) /\ r = rev l.
Proof.
  intros l Hflat. exists (rev l). unfold f_reverse. rewrite (as_sequence_flat l Hflat).
  split; [reflexivity|]. split; [|reflexivity].
  rewrite as_sequence_flat by (intros x Hx; apply Hflat, in_rev, Hx). rewrite rev_involutive. reflexivity.
Qed.
Print Assumptions C25_reverse.

Theorem C25_concat : forall l l2, (forall x, In x l -> match x with VList _ => False | _ => True end) ->
  f_concat (VList l) (VList l2) = FOk (VList (l ++ l2)).
Proof. intros l l2 H. unfold f_concat. rewrite (as_sequence_flat l H). reflexivity. Qed.
Print Assumptions C25_concat.

Theorem C25_where_reject_partition : forall (p : val -> bool) l,
  Permutation (filter p l ++ filter (fun x => negb (p x)) l) l.
Proof. exact (@where_reject_partition val). Qed.
Print Assumptions C25_where_reject_partition.

(* integer arithmetic: exact; divided_by is floor division, modulo its remainder; division by zero is a Liquid error *)
Theorem C25_int_arith : forall a b,
  f_plus (VInt a) (VInt b) = FOk (VInt (a + b)) /\
  f_minus (VInt a) (VInt b) = FOk (VInt (a - b)) /\
  f_times (VInt a) (VInt b) = FOk (VInt (a * b)) /\
  f_abs (VInt a) = FOk (VInt (Z.abs a)) /\
  f_at_least (VInt a) (VInt b) = FOk (VInt (Z.max a b)) /\
  f_at_most (VInt a) (VInt b) = FOk (VInt (Z.min a b)) /\
  f_ceil (VInt a) = FOk (VInt a) /\ f_floor (VInt a) = FOk (VInt a) /\ f_round (VInt a) = FOk (VInt a).
Proof.
  intros a b. repeat split; try reflexivity.
  - unfold f_at_least, other_in, math_in. cbn [num_arg]. rewrite num_leb_int.
    destruct (Z.leb_spec b a); cbn [num_val]; f_equal; f_equal; lia.
  - unfold f_at_most, other_in, math_in. cbn [num_arg]. rewrite num_leb_int.
    destruct (Z.leb_spec a b); cbn [num_val]; f_equal; f_equal; lia.
Qed.
Print Assumptions C25_int_arith.

Theorem C25_int_division : forall a b,
  (b <> 0%Z ->
   exists q r, f_divided_by (VInt a) (VInt b) = FOk (VInt q) /\ f_modulo (VInt a) (VInt b) = FOk (VInt r) /\
               a = (b * q + r)%Z /\ ((0 <= r < b)%Z \/ (b < r <= 0)%Z)) /\
  (f_divided_by (VInt a) (VInt 0) = FErr EFilterArg /\ f_modulo (VInt a) (VInt 0) = FErr EFilterArg).
Proof.
  intros a b. split; [|split; reflexivity]. intro Hb. exists (a / b)%Z, (a mod b)%Z.
  unfold f_divided_by, f_modulo. cbn [math_in other_in num_arg].
  destruct (Z.eqb_spec b 0); [contradiction|]. repeat split; try reflexivity.
  - apply Z.div_mod, Hb.
  - apply Z.mod_bound_or, Hb.
Qed.
Print Assumptions C25_int_division.

Theorem C25_default : forall d,
  (forall v, In v [VNil; VUndef; VBool false; VStr []; VList []; VDict []] -> f_default v d false = FOk d) /\
  (forall z, f_default (VInt z) d false = FOk (VInt z)) /\
  (forall m e, f_default (VDec m e) d false = FOk (VDec m e)) /\
  f_default (VBool true) d false = FOk (VBool true) /\
  f_default (VBool false) d true = FOk (VBool false) /\
  (forall c s, f_default (VStr (c :: s)) d false = FOk (VStr (c :: s))) /\
  (forall x l, f_default (VList (x :: l)) d false = FOk (VList (x :: l))).
Proof.
  intro d. repeat split; try reflexivity.
  intros v Hv. cbn in Hv. repeat (destruct Hv as [<-|Hv]; [reflexivity|]). destruct Hv.
Qed.
Print Assumptions C25_default.

Theorem C25_size :
  (forall s, f_size (VStr s) = FOk (VInt (Z.of_nat (length s)))) /\
  (forall l, f_size (VList l) = FOk (VInt (Z.of_nat (length l)))) /\
  (forall d, f_size (VDict d) = FOk (VInt (Z.of_nat (length d)))) /\
  (forall v, match v with VStr _ | VList _ | VDict _ => True | _ => f_size v = FOk (VInt 0) end).
Proof. repeat split; try reflexivity. intro v. destruct v; try exact I; reflexivity. Qed.
Print Assumptions C25_size.

(* slice with a non-negative start and length selects `length` items from `start` *)
Theorem C25_slice_from_start : forall (l : list val) (a n : Z),
  (0 <= a < 9223372036854775807)%Z -> (0 <= n < 9223372036854775807)%Z -> (a + n < 9223372036854775807)%Z ->
  f_slice (VList l) (VInt a) (VInt n) = FOk (VList (firstn (Z.to_nat n) (skipn (Z.to_nat a) l))).
Proof.
  intros l a n Ha Hn Han. unfold f_slice, slice_arg. cbn [to_int_val]. rewrite !clamp63_id by lia.
  destruct (Z.ltb_spec a 0); [lia|]. cbn [andb]. rewrite py_slice_nonneg by lia. reflexivity.
Qed.
Print Assumptions C25_slice_from_start.

(* a negative start counts from the end; a length reaching past the end takes everything that is left *)
Theorem C25_slice_from_end : forall (l : list val) (k n : Z),
  (1 <= k <= Z.of_nat (length l))%Z -> (k <= n < 9223372036854775807)%Z ->
  f_slice (VList l) (VInt (- k)) (VInt n) = FOk (VList (skipn (length l - Z.to_nat k) l)).
Proof.
  intros l k n Hk Hn. unfold f_slice, slice_arg. cbn [to_int_val]. rewrite !clamp63_id by lia.
  destruct (Z.ltb_spec (- k) 0); [|lia]. destruct (Z.leb_spec 0 (- k + n)); [|lia]. cbn [andb].
  rewrite py_slice_last by exact Hk. reflexivity.
Qed.
Print Assumptions C25_slice_from_end.

Theorem C25_first_last : forall x l,
  f_first (VList (x :: l)) = FOk x /\ f_last (VList (x :: l)) = FOk (last (x :: l) VNil) /\
  f_first (VList []) = FOk VNil /\ f_last (VList []) = FOk VNil /\
  (forall s, f_first (VStr s) = FOk VNil /\ f_last (VStr s) = FOk VNil).
Proof. repeat split; reflexivity. Qed.
Print Assumptions C25_first_last.


(* upcase / downcase (ASCII): a letter of the other case moves by 32, every other character stays; the filters work
   character by character, leave no letter of the other case, are idempotent and do not disturb a case-insensitive
   comparison *)
Theorem C25_case_chars : forall c,
  ((is_lower c -> up c = (c - 32)%N /\ is_upper (up c)) /\ (~ is_lower c -> up c = c)) /\
  ((is_upper c -> low c = (c + 32)%N /\ is_lower (low c)) /\ (~ is_upper c -> low c = c)).
Proof. intro c. split; [apply up_char|apply low_char]. Qed.
Print Assumptions C25_case_chars.

Theorem C25_upcase : forall s : str,
  length (map up s) = length s /\
  (forall i, nth i (map up s) 0%N = up (nth i s 0%N)) /\
  Forall (fun c => ~ is_lower c) (map up s) /\
  map up (map up s) = map up s /\
  map low (map up s) = map low s.
Proof. exact (charwise_contract up low is_lower eq_refl up_not_lower up_up low_up). Qed.
Print Assumptions C25_upcase.

Theorem C25_downcase : forall s : str,
  length (map low s) = length s /\
  (forall i, nth i (map low s) 0%N = low (nth i s 0%N)) /\
  Forall (fun c => ~ is_upper c) (map low s) /\
  map low (map low s) = map low s /\
  map up (map low s) = map up s.
Proof. exact (charwise_contract low up is_upper eq_refl low_not_upper low_low up_low). Qed.
Print Assumptions C25_downcase.

(* capitalize: first character upper-cased, the rest lower-cased *)
Theorem C25_capitalize :
  capitalize_s [] = [] /\
  (forall c r, capitalize_s (c :: r) = up c :: map low r) /\
  (forall s, length (capitalize_s s) = length s) /\
  (forall s, capitalize_s (capitalize_s s) = capitalize_s s).
Proof.
  split; [reflexivity|]. split; [reflexivity|]. split.
  - intros [|c r]; cbn; [reflexivity|]. rewrite map_length. reflexivity.
  - intros [|c r]; cbn; [reflexivity|]. rewrite up_up. f_equal. rewrite map_map. apply map_ext. apply low_low.
Qed.
Print Assumptions C25_capitalize.

(* what a string filter does with a value that is not a string: nil and undefined are the empty string, an int its decimal
   digits, a boolean Python's True / False *)
Theorem C25_string_filter_inputs : forall f : str -> str,
  (forall s, str_filter1 f (VStr s) = FOk (VStr (f s))) /\
  str_filter1 f VNil = FOk (VStr (f [])) /\ str_filter1 f VUndef = FOk (VStr (f [])) /\
  (forall z, str_filter1 f (VInt z) = FOk (VStr (f (Z_to_str z)))) /\
  (forall b, str_filter1 f (VBool b) = FOk (VStr (f (if b then lit "True" else lit "False")))).
Proof. repeat split; reflexivity. Qed.
Print Assumptions C25_string_filter_inputs.

(* lstrip / rstrip / strip remove exactly the leading / trailing / surrounding run of whitespace *)
Theorem C25_lstrip : forall s : str,
  exists a, s = a ++ lstrip_s s /\ all_space a /\ starts_nonspace (lstrip_s s).
Proof. exact lstrip_contract. Qed.
Print Assumptions C25_lstrip.

Theorem C25_rstrip : forall s : str,
  exists b, s = rstrip_s s ++ b /\ all_space b /\ ends_nonspace (rstrip_s s).
Proof. exact rstrip_contract. Qed.
Print Assumptions C25_rstrip.

Theorem C25_strip : forall s : str,
  exists a b, s = a ++ strip_s s ++ b /\ all_space a /\ all_space b /\
              starts_nonspace (strip_s s) /\ ends_nonspace (strip_s s).
Proof.
  intro s. unfold strip_s. destruct (lstrip_contract s) as [a [H1 [H2 H3]]].
  destruct (rstrip_contract (lstrip_s s)) as [b [H4 [H5 H6]]].
  exists a, b. split; [rewrite <- H4; exact H1|]. split; [exact H2|]. split; [exact H5|]. split; [|exact H6].
  (* a non-empty result starts with the first character of lstrip s, which is not whitespace *)
  destruct (rstrip_s (lstrip_s s)) as [|x t] eqn:E; [exact I|].
  rewrite H4 in H3. exact H3.
Qed.
Print Assumptions C25_strip.

(* strip_newlines: the result is the one string allowed by the relation SN (every LF goes, with a CR directly before it;
   nothing else); it contains no LF; a string without LF is unchanged; idempotent; all other characters kept in order *)
Theorem C25_strip_newlines : forall s : str,
  (forall o, SN s o <-> o = strip_newlines_s s) /\
  ~ In 10%N (strip_newlines_s s) /\
  (~ In 10%N s -> strip_newlines_s s = s) /\
  strip_newlines_s (strip_newlines_s s) = strip_newlines_s s /\
  filter (fun c => negb (c =? 10)%N && negb (c =? 13)%N) (strip_newlines_s s) =
  filter (fun c => negb (c =? 10)%N && negb (c =? 13)%N) s.
Proof.
  intro s. split; [intro o; apply strip_newlines_unique|]. split; [apply strip_newlines_no_lf|].
  split; [apply strip_newlines_id|]. split; [apply strip_newlines_id, strip_newlines_no_lf|].
  apply SN_filter, strip_newlines_sound.
Qed.
Print Assumptions C25_strip_newlines.

(* sort_natural: a new list with the same items in ascending order of their lower-cased text, equal keys in their
   original order *)
Theorem C25_sort_natural : forall l : list val,
  (forall x, In x l -> match x with VList _ => False | _ => True end) ->
  (forall x, In x l -> py_str x <> None) ->
  exists l', f_sort_natural (VList l) = FOk (VList l') /\
             Permutation l' l /\
             StronglySorted (fun a b => str_leb (lkey a) (lkey b) = true) l' /\
             (forall k, filter (same_key k) l' = filter (same_key k) l).
Proof.
  intros l Hflat Hp. exists (sort_by natural_key l). split; [apply sort_natural_eq; assumption|].
  split; [apply sort_by_perm|]. split; [exact (sort_by_sorted natural_key l)|].
  intro k. exact (sort_by_stable natural_key (KStr k) l).
Qed.
Print Assumptions C25_sort_natural.

(* the keys: case-insensitive for strings; nil sorts as none, numbers as their digits, booleans as true / false;
   same_key k means: the key equals k *)
Theorem C25_sort_natural_keys :
  ((forall s, lkey (VStr s) = map low s) /\
   (forall s, lkey (VStr (map up s)) = lkey (VStr s)) /\
   lkey VNil = lit "none" /\
   (forall z, lkey (VInt z) = map low (Z_to_str z)) /\
   lkey (VBool true) = lit "true" /\ lkey (VBool false) = lit "false") /\
  (forall k x, same_key k x = true <-> lkey x = k).
Proof.
  split; [|exact same_key_eq]. repeat split; try reflexivity.
  intro s. unfold lkey. cbn [py_str]. rewrite map_map. apply map_ext. apply low_up.
Qed.
Print Assumptions C25_sort_natural_keys.

(* map over an array of hashes: item for item the value of the property, nil where it is missing *)
Theorem C25_map_hashes : forall (ds : list (list (str * val))) (k : str),
  f_map2 (VList (map VDict ds)) (VStr k) = FOk (VList (map (prop_or_nil k) ds)).
Proof.
  intros ds k. unfold f_map2. rewrite (as_sequence_map VDict) by (intro; exact I). cbn [py_str].
  rewrite <- (app_nil_r (map VDict ds)), map_items_hashes. cbn [map_items]. rewrite !app_nil_r. reflexivity.
Qed.
Print Assumptions C25_map_hashes.

(* a single hash, undefined, a nil item (whole result nil), a number among the items (FilterError) *)
Theorem C25_map_other_inputs : forall k : str,
  (forall d, f_map2 (VDict d) (VStr k) = FOk (VList [prop_or_nil k d])) /\
  f_map2 VUndef (VStr k) = FOk (VList []) /\
  (forall ds rest, f_map2 (VList (map VDict ds ++ VNil :: rest)) (VStr k) = FOk VNil) /\
  (forall ds z rest, f_map2 (VList (map VDict ds ++ VInt z :: rest)) (VStr k) = FErr ELiquid).
Proof.
  intro k. split; [reflexivity|]. split; [reflexivity|]. split.
  - intros ds rest. unfold f_map2. cbn [py_str]. destruct (as_sequence_hashes_then ds VNil rest I) as [rest' ->].
    rewrite map_items_hashes. reflexivity.
  - intros ds z rest. unfold f_map2. cbn [py_str]. destruct (as_sequence_hashes_then ds (VInt z) rest I) as [rest' ->].
    rewrite map_items_hashes. reflexivity.
Qed.
Print Assumptions C25_map_other_inputs.

(* default, for every value: the argument exactly for nil, undefined, false (unless allow_false is the boolean true) and
   the empty string / array / hash; the input itself for everything else *)
Theorem C25_default_all : forall v d : val,
  (forall af, f_default v d af = FOk (if blank v af then d else v)) /\
  (forall afv, f_default2 v d afv = FOk (if blank v (match afv with VBool true => true | _ => false end) then d else v)).
Proof.
  intros v d.
  assert (H : forall af, f_default v d af = FOk (if blank v af then d else v)).
  { intro af. destruct v as [| |[|]|z|m e|[|c s]|[|x l]|[|p l]]; try reflexivity; destruct af; reflexivity. }
  split; [exact H|]. intro afv. unfold f_default2. apply H.
Qed.
Print Assumptions C25_default_all.

(* first / last on hashes and on values that are not collections *)
Theorem C25_first_last_others :
  (forall k x d, f_first (VDict ((k, x) :: d)) = FOk (VList [VStr k; x])) /\
  f_first (VDict []) = FOk VNil /\
  (forall d, f_last (VDict d) = FOk VNil) /\
  (forall v, match v with VList _ | VDict _ | VUndef => True | _ => f_first v = FOk VNil /\ f_last v = FOk VNil end).
Proof. repeat split; try reflexivity. intro v. destruct v; try exact I; split; reflexivity. Qed.
Print Assumptions C25_first_last_others.

(* numbers: num_Q is the exact value of an operand (int z: z; decimal m e: m / 10^e; anything that is not a number: 0),
   val_Q the exact value of a result *)

(* plus, minus, times: exact for every pair of inputs; ints stay ints *)
Theorem C25_plus_minus_times_exact : forall v o : val,
  let a := math_in v in let b := math_in o in
  (exists r, f_plus v o = FOk r /\ numeric r /\ (val_Q r == num_Q a + num_Q b)%Q) /\
  (exists r, f_minus v o = FOk r /\ numeric r /\ (val_Q r == num_Q a - num_Q b)%Q) /\
  (exists r, f_times v o = FOk r /\ numeric r /\ (val_Q r == num_Q a * num_Q b)%Q) /\
  (forall x y, a = NInt x -> b = NInt y ->
     f_plus v o = FOk (VInt (x + y)) /\ f_minus v o = FOk (VInt (x - y)) /\ f_times v o = FOk (VInt (x * y))).
Proof.
  intros v o a b. subst a b. unfold f_plus, f_minus, f_times, other_in. split; [|split; [|split]].
  - eexists. split; [reflexivity|]. apply (arith_Q Z.add Qplus dec_Q_plus Qplus_comp).
  - eexists. split; [reflexivity|]. apply (arith_Q Z.sub Qminus dec_Q_minus Qminus_comp).
  - eexists. split; [reflexivity|]. apply arith_mul_Q.
  - intros x y -> ->. repeat split; reflexivity.
Qed.
Print Assumptions C25_plus_minus_times_exact.

Theorem C25_abs_exact : forall v : val,
  exists r, f_abs v = FOk r /\ numeric r /\ (val_Q r == Qabs (num_Q (math_in v)))%Q.
Proof.
  intro v. unfold f_abs. destruct (math_in v) as [x|m e].
  - eexists. split; [reflexivity|]. split; [exact I|]. reflexivity.
  - eexists. split; [reflexivity|]. destruct (mk_dec_Q (Z.abs m) e) as [Hn Hq]. split; [exact Hn|]. rewrite Hq. reflexivity.
Qed.
Print Assumptions C25_abs_exact.

(* at_least: one of the two operands, not below either; at_most: one of the two, not above either *)
Theorem C25_at_least_at_most_exact : forall v o : val,
  let a := num_Q (math_in v) in let b := num_Q (math_in o) in
  (exists r, f_at_least v o = FOk r /\ numeric r /\ ((val_Q r == a \/ val_Q r == b) /\ a <= val_Q r /\ b <= val_Q r)%Q) /\
  (exists r, f_at_most v o = FOk r /\ numeric r /\ ((val_Q r == a \/ val_Q r == b) /\ val_Q r <= a /\ val_Q r <= b)%Q).
Proof.
  intros v o a b. unfold f_at_least, f_at_most, other_in.
  destruct (num_val_Q (math_in v)) as [Hnv Hqv], (num_val_Q (math_in o)) as [Hno Hqo]. split.
  - destruct (num_leb_spec (math_in o) (math_in v)) as [H|H]; eexists; (split; [reflexivity|]).
    + split; [exact Hnv|]. rewrite Hqv. split; [left; reflexivity|]. split; [apply Qle_refl|exact H].
    + split; [exact Hno|]. rewrite Hqo. split; [right; reflexivity|]. split; [apply Qlt_le_weak, H|apply Qle_refl].
  - destruct (num_leb_spec (math_in v) (math_in o)) as [H|H]; eexists; (split; [reflexivity|]).
    + split; [exact Hnv|]. rewrite Hqv. split; [left; reflexivity|]. split; [apply Qle_refl|exact H].
    + split; [exact Hno|]. rewrite Hqo. split; [right; reflexivity|]. split; [apply Qlt_le_weak, H|apply Qle_refl].
Qed.
Print Assumptions C25_at_least_at_most_exact.

(* floor: the largest integer not above the value; ceil: the smallest integer not below it *)
Theorem C25_floor_ceil_exact : forall v : val,
  let q := num_Q (math_in v) in
  (exists z, f_floor v = FOk (VInt z) /\ (inject_Z z <= q /\ q < inject_Z (z + 1))%Q) /\
  (exists z, f_ceil v = FOk (VInt z) /\ (inject_Z (z - 1) < q /\ q <= inject_Z z)%Q).
Proof.
  intros v q. unfold q, f_floor, f_ceil, num_Q. destruct (math_in v) as [x|m e]; cbn [mant num_e].
  - split; eexists; (split; [reflexivity|]).
    + rewrite Qle_int_dec, Qlt_dec_int, pow10_0. lia.
    + rewrite Qlt_int_dec, Qle_dec_int, pow10_0. lia.
  - split; eexists; (split; [reflexivity|]); [apply dec_Q_floor|apply dec_Q_ceil].
Qed.
Print Assumptions C25_floor_ceil_exact.

(* round: an integer within one half of the value, the even one at exactly one half *)
Theorem C25_round_exact : forall v : val,
  let q := num_Q (math_in v) in
  exists z, f_round v = FOk (VInt z) /\ (Qabs (q - inject_Z z) <= 1 # 2)%Q /\ ((Qabs (q - inject_Z z) == 1 # 2)%Q -> Z.even z = true).
Proof.
  intros v q. unfold q, f_round, num_Q. destruct (math_in v) as [x|m e]; cbn [mant num_e].
  - exists x. split; [reflexivity|]. rewrite Qabs_half_le, Qabs_half_eq, pow10_0. split; [lia|intro; lia].
  - exists (round_half_even m (pow10 e)). split; [reflexivity|]. rewrite Qabs_half_le, Qabs_half_eq.
    apply round_half_even_spec, pow10_pos.
Qed.
Print Assumptions C25_round_exact.

(* round with n > 0 digits: ints and decimals of at most n places unchanged; otherwise r * 10^n is the integer nearest to
   value * 10^n (half to even; the binary float decides differently when the decimal tie is not a dyadic number - those
   inputs are outside the correspondence).  Zero digits, nil and undefined: plain round.  Negative digits: 0 (what the code
   does; undocumented). *)
Theorem C25_round_digits_exact : forall (v : val) (n : Z), (0 < n)%Z ->
  let q := num_Q (math_in v) in
  (forall x, math_in v = NInt x -> f_round2 v (VInt n) = FOk (VInt x)) /\
  (forall m e, math_in v = NDec m e -> (Z.of_nat e <= n)%Z ->
     exists r, f_round2 v (VInt n) = FOk r /\ numeric r /\ (val_Q r == q)%Q) /\
  (forall m e, math_in v = NDec m e -> (n < Z.of_nat e)%Z ->
     exists r z, f_round2 v (VInt n) = FOk r /\ numeric r /\
       (val_Q r * inject_Z (pow10 (Z.to_nat n)) == inject_Z z)%Q /\
       (Qabs (q * inject_Z (pow10 (Z.to_nat n)) - inject_Z z) <= 1 # 2)%Q /\
       ((Qabs (q * inject_Z (pow10 (Z.to_nat n)) - inject_Z z) == 1 # 2)%Q -> Z.even z = true)) /\
  (forall k, (k < 0)%Z -> f_round2 v (VInt k) = FOk (VInt 0)) /\
  f_round2 v (VInt 0) = f_round v /\ f_round2 v VUndef = f_round v /\ f_round2 v VNil = f_round v.
Proof.
  intros v n Hn q. unfold q, f_round2. cbn [num_arg].
  destruct (Z.ltb_spec n 0); [lia|]. destruct (Z.eqb_spec n 0); [lia|].
  split; [intros x ->; reflexivity|]. split; [|split; [|split; [|repeat split]]].
  - intros m e -> He. destruct (Z.leb_spec (Z.of_nat e) n); [|lia].
    eexists. split; [reflexivity|]. apply mk_dec_Q.
  - intros m e -> He. destruct (Z.leb_spec (Z.of_nat e) n); [lia|].
    set (nn := Z.to_nat n). assert (Hle : nn <= e) by (unfold nn; lia).
    set (z := round_half_even m (pow10 (e - nn))).
    exists (mk_dec z nn), z. split; [reflexivity|]. destruct (mk_dec_Q z nn) as [Hnum Hq]. split; [exact Hnum|].
    (* times 10^n the result is z, and the input is m with e - n places left *)
    split; [rewrite Hq, (dec_Q_shift z nn nn (le_n nn)), Nat.sub_diag; reflexivity|].
    unfold num_Q. cbn [mant num_e]. rewrite (dec_Q_shift m e nn Hle), Qabs_half_le, Qabs_half_eq.
    apply round_half_even_spec, pow10_pos.
  - intros k Hk. destruct (Z.ltb_spec k 0); [reflexivity|lia].
Qed.
Print Assumptions C25_round_digits_exact.

(* divided_by (repaired): floor division of two ints; a zero divisor is FilterArgumentError; otherwise every result of the
   model is the exact quotient (result * divisor = dividend) *)
Theorem C25_divided_by_exact : forall v o : val,
  let a := math_in v in let b := math_in o in
  (forall x y, a = NInt x -> b = NInt y ->
     f_divided_by2 v o = if (y =? 0)%Z then FErr EFilterArg else FOk (VInt (x / y))) /\
  (mant b = 0%Z -> f_divided_by2 v o = FErr EFilterArg) /\
  (is_int a && is_int b = false -> forall r, f_divided_by2 v o = FOk r ->
     numeric r /\ (val_Q r * num_Q b == num_Q a)%Q).
Proof.
  intros v o a b. split; [|split].
  - unfold f_divided_by2. fold a b. intros x y -> ->. reflexivity.
  - unfold f_divided_by2. fold a b. intro Hz.
    destruct a as [x|ma ea], b as [y|mb eb]; cbn [mant num_e] in *; subst; try reflexivity;
      rewrite Z.mul_0_l; reflexivity.
  - intros Hg r. rewrite (divided_by2_dec v o Hg). fold a b. cbv zeta.
    destruct (Z.eqb_spec (mant b * pow10 (num_e a)) 0) as [|Hd]; [discriminate|].
    destruct (find_quot _ _ _ _) as [[q k]|] eqn:Ef; [|discriminate].
    intros [= <-]. exact (find_quot_Q a b _ q k Hd Ef).
Qed.
Print Assumptions C25_divided_by_exact.

(* modulo (repaired): a = b * k + r for an integer k, with r between 0 and the divisor, for ints and decimals alike *)
Theorem C25_modulo_exact : forall v o : val,
  let a := math_in v in let b := math_in o in
  (mant b = 0%Z -> f_modulo2 v o = FErr EFilterArg) /\
  (mant b <> 0%Z ->
   exists r k, f_modulo2 v o = FOk r /\ numeric r /\
     (num_Q a == num_Q b * inject_Z k + val_Q r)%Q /\
     ((0 <= val_Q r /\ val_Q r < num_Q b)%Q \/ (num_Q b < val_Q r /\ val_Q r <= 0)%Q) /\
     (is_int a && is_int b = true -> exists z, r = VInt z)).
Proof.
  intros v o a b. set (e := Nat.max (num_e a) (num_e b)). split.
  - intro Hz. unfold f_modulo2. fold a b. destruct a as [x|ma ea], b as [y|mb eb]; cbn [mant] in Hz; subst;
      try reflexivity; cbv zeta; rewrite (proj2 (scale_zero _ _) eq_refl); reflexivity.
  - intro Hnz. assert (Hne : scale b e <> 0%Z) by (rewrite scale_zero; exact Hnz).
    destruct (modulo2_scaled v o Hne) as [r [Hr [Hnum [Hq Hint]]]]. fold a b e in Hq, Hint.
    exists r, (scale a e / scale b e)%Z. split; [exact Hr|]. split; [exact Hnum|].
    destruct (dec_Q_div_mod (scale a e) (scale b e) e Hne) as [H1 H2].
    rewrite Hq, <- (dec_Q_scale a e (Nat.le_max_l _ _)), <- (dec_Q_scale b e (Nat.le_max_r _ _)).
    split; [exact H1|]. split; [exact H2|exact Hint].
Qed.
Print Assumptions C25_modulo_exact.

(* before the repairs: -7.0 modulo 2 was -1.0 (sign of the dividend) although -7 modulo 2 is 1, and a boolean next to a
   float raised FilterArgumentError although it is 1 / 0 next to an int *)
Theorem C25_modulo_old_refuted :
  f_modulo_old (VDec (-70) 1) (VInt 2) = FOk (VDec (-10) 1) /\ f_modulo2 (VDec (-70) 1) (VInt 2) = FOk (VDec 10 1) /\
  f_modulo2 (VInt (-7)) (VInt 2) = FOk (VInt 1).
Proof. vm_compute. repeat split; reflexivity. Qed.
Print Assumptions C25_modulo_old_refuted.

Theorem C25_math_bool_old_refuted :
  f_plus_old (VBool true) (VDec 2 1) = FErr EFilterArg /\ f_plus_old (VBool true) (VInt 1) = FOk (VInt 2) /\
  f_plus (VBool true) (VDec 2 1) = FOk (VDec 12 1).
Proof. vm_compute. repeat split; reflexivity. Qed.
Print Assumptions C25_math_bool_old_refuted.

(* the hypotheses are satisfiable and the models compute *)
Example C25_split_join_nonvacuous :
  f_split (VStr (lit "a,,b,")) (VStr (lit ",")) = FOk (VList [VStr (lit "a"); VStr []; VStr (lit "b"); VStr []]).
Proof. vm_compute. reflexivity. Qed.

Example C25_divided_by_nonvacuous :
  f_divided_by2 (VDec 3 1) (VDec 1 1) = FOk (VDec 30 1) /\ f_divided_by2 (VInt 1) (VDec 1 1) = FOk (VDec 100 1) /\
  f_divided_by2 (VInt 20) (VDec 70 1) = FErr EOtherForeign /\ f_divided_by2 (VDec 75 1) (VDec 0 1) = FErr EFilterArg.
Proof. vm_compute. repeat split; reflexivity. Qed.
Example C25_round_digits_nonvacuous :
  f_round2 (VDec 183357 3) (VInt 2) = FOk (VDec 18336 2) /\ f_round2 (VDec 125 2) (VInt 1) = FOk (VDec 12 1) /\
  f_round2 (VInt 1234) (VInt (-1)) = FOk (VInt 0) /\ f_round2 (VDec 155 2) (VStr (lit "1")) = FOk (VDec 16 1).
Proof. vm_compute. repeat split; reflexivity. Qed.
Example C25_sort_natural_nonvacuous :
  f_sort_natural (VList [VStr (lit "b"); VNil; VStr (lit "A"); VInt 10; VStr (lit "a")]) =
  FOk (VList [VInt 10; VStr (lit "A"); VStr (lit "a"); VStr (lit "b"); VNil]).
Proof. vm_compute. reflexivity. Qed.
Example C25_strip_newlines_nonvacuous :
  strip_newlines_s [97; 10; 98; 13; 10; 99; 13; 100; 13; 13; 10]%N = [97; 98; 99; 13; 100; 13]%N /\
  strip_s [28; 32; 97; 32; 98; 31; 9]%N = [97; 32; 98]%N.
Proof. vm_compute. split; reflexivity. Qed.
