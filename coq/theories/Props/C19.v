(* C19 -- Static analysis reports everything a render can touch.
   Model: StaticAnalysis.v (analyze = the repaired _visit walk; exec_prog = the tracing interpreter, over
   output/echo, assign, capture, increment/decrement, for/else and tablerow over paths and ranges with limit/
   offset (also continue)/reversed/cols, if/unless/
   elsif/else, case/when/else, cycle, liquid, with, macro/call, include, render, paths with paths nested to any depth;
   analyze_old = the walk before the three fix: commits).  The soundness theorems are read off trace_QA and
   trace_QB of StaticAnalysis_Proofs.v (the simulation of the interpreter by the walk); the witnesses and
   examples are evaluations of the programs defined there. *)
From LiquidVerif Require Import Prelude StaticAnalysis StaticAnalysis_Proofs.

(* For every program (any partials, any recursion between them), every analysis fuel for which the walk
   completes, every interpreter fuel (so: every prefix of every render, also one cut short by an error)
   and every render data: each variable path a render evaluates is among the reported variables. *)
Theorem C19_variables_sound :
  forall (P : prog) (fa fe : nat) (data : list (str * value)) (A : astate) (p : path) (g e : bool),
    analyze P fa = Ok A -> In (ERead p g e) (d_trace (exec_prog P fe data)) -> In p (a_vars A).
Proof.
  intros P fa fe data A p g e Ha Hin. exact (proj1 (Forall_forall _ _) (trace_QA P fa fe data A Ha) _ Hin).
Qed.
Print Assumptions C19_variables_sound.

(* ... each filter a render applies is among the reported filters *)
Theorem C19_filters_sound :
  forall (P : prog) (fa fe : nat) (data : list (str * value)) (A : astate) (f : str),
    analyze P fa = Ok A -> In (EFilter f) (d_trace (exec_prog P fe data)) -> In f (a_filters A).
Proof.
  intros P fa fe data A f Ha Hin. exact (proj1 (Forall_forall _ _) (trace_QA P fa fe data A Ha) _ Hin).
Qed.
Print Assumptions C19_filters_sound.

(* ... each tag a render renders is among the reported tags *)
Theorem C19_tags_sound :
  forall (P : prog) (fa fe : nat) (data : list (str * value)) (A : astate) (t : str),
    analyze P fa = Ok A -> In (ETag t) (d_trace (exec_prog P fe data)) -> In t (a_tags A).
Proof.
  intros P fa fe data A t Ha Hin. exact (proj1 (Forall_forall _ _) (trace_QA P fa fe data A Ha) _ Hin).
Qed.
Print Assumptions C19_tags_sound.

(* ... a path whose root a render resolves from the top-level render data (from_global = true) at a
   reference where no enclosing block binds the root and no assignment precedes it in source order
   (excused = false; partials with shared scope expanded in place) is among the reported globals *)
Theorem C19_globals_sound :
  forall (P : prog) (fa fe : nat) (data : list (str * value)) (A : astate) (p : path),
    analyze P fa = Ok A -> In (ERead p true false) (d_trace (exec_prog P fe data)) -> In p (a_globals A).
Proof.
  intros P fa fe data A p Ha Hin. exact (proj1 (Forall_forall _ _) (trace_QB P fa fe data A Ha) _ Hin).
Qed.
Print Assumptions C19_globals_sound.

(* The arguments of a for / tablerow loop (limit, offset, cols) are among the expressions the walk analyses,
   each of them whichever of the others are present; with C19_variables_sound: every argument expression
   a render evaluates is reported. *)
Theorem C19_loop_arguments_analysed :
  forall (x : str) (it : iter_src) (la : loop_args) (body els : list node) (a : atom),
    la_limit la = Some a \/ la_offset la = Some (OffAtom a) \/ la_cols la = Some a ->
    In (plain a) (n_exprs (NFor x it la body els)) /\ In (plain a) (n_exprs (NTablerow x it la body)).
Proof.
  intros x it la body els a H. apply la_atoms_In in H.
  split; simpl; apply in_or_app; right; apply in_map; exact H.
Qed.
Print Assumptions C19_loop_arguments_analysed.

(* A path used as a segment of another path, and every path nested in it at any depth, is among the paths the
   walk analyses for the outer one; with C19_variables_sound and the interpreter, which evaluates the innermost
   path first: the nested path is reported and read on its own at every level. *)
Theorem C19_nested_paths_analysed :
  forall (r : str) (segs : list seg) (q : path),
    In (SSub q) segs -> incl (all_paths q) (atom_paths (AVar (Path r segs))).
Proof.
  intros r segs q H. unfold atom_paths. rewrite all_paths_eq. apply incl_tl.
  induction segs as [|s l IH]; [destruct H|].
  destruct H as [->|H]; [apply incl_appl, incl_refl|].
  destruct s as [k|i|q']; [exact (IH H).. | exact (incl_appr _ (IH H))].
Qed.
Print Assumptions C19_nested_paths_analysed.

(* The walk as it was before the fixes violates every clause (witnesses; the same programs are seeds of the harness). *)
(* a partial first met while its parent is revisited for globals only is never visited in full *)
Theorem C19_variables_old_refuted :
  exists A, analyze_old W_jg 20 = Ok A /\
    In (ERead (pv q_y) true false) (d_trace (exec_prog W_jg 20 W_jg_data)) /\ ~ In (pv q_y) (a_vars A).
Proof.
  eexists. split; [vm_compute; reflexivity|].
  split; [apply (In_find event_eqb); vm_compute; reflexivity | vm_compute; intuition discriminate].
Qed.
Print Assumptions C19_variables_old_refuted.

Theorem C19_filters_old_refuted :
  exists A, analyze_old W_jg 20 = Ok A /\
    In (EFilter q_upcase) (d_trace (exec_prog W_jg 20 W_jg_data)) /\ ~ In q_upcase (a_filters A).
Proof.
  eexists. split; [vm_compute; reflexivity|].
  split; [apply (In_find event_eqb) | apply mem_false_not_In]; vm_compute; reflexivity.
Qed.
Print Assumptions C19_filters_old_refuted.

Theorem C19_tags_old_refuted :
  exists A, analyze_old W_jg 20 = Ok A /\
    In (ETag s_assign) (d_trace (exec_prog W_jg 20 W_jg_data)) /\ ~ In s_assign (a_tags A).
Proof.
  eexists. split; [vm_compute; reflexivity|].
  split; [apply (In_find event_eqb) | apply mem_false_not_In]; vm_compute; reflexivity.
Qed.
Print Assumptions C19_tags_old_refuted.

(* a shared-scope partial included inside a block binding x and again outside it is visited once *)
Theorem C19_globals_old_refuted_seen :
  exists A, analyze_old W_seen 20 = Ok A /\
    In (ERead (pv q_x) true false) (d_trace (exec_prog W_seen 20 W_seen_data)) /\ ~ In (pv q_x) (a_globals A).
Proof.
  eexists. split; [vm_compute; reflexivity|].
  split; [apply (In_find event_eqb); vm_compute; reflexivity | vm_compute; intuition discriminate].
Qed.
Print Assumptions C19_globals_old_refuted_seen.

(* an include under a rendered partial writes the root template's scope *)
Theorem C19_globals_old_refuted_include_under_render :
  exists A, analyze_old W_inc 20 = Ok A /\
    In (ERead (pv q_v) true false) (d_trace (exec_prog W_inc 20 W_inc_data)) /\ ~ In (pv q_v) (a_globals A).
Proof.
  eexists. split; [vm_compute; reflexivity|].
  split; [apply (In_find event_eqb); vm_compute; reflexivity | vm_compute; intuition discriminate].
Qed.
Print Assumptions C19_globals_old_refuted_include_under_render.

(* non-vacuity: the repaired walk completes on the same programs and reports what was missing;
   the traces really contain the reads in question *)
Example C19_repaired_on_witnesses :
  (exists A, analyze W_jg 20 = Ok A /\ In (pv q_y) (a_vars A) /\ In q_upcase (a_filters A) /\ In s_assign (a_tags A)) /\
  (exists A, analyze W_seen 20 = Ok A /\ In (pv q_x) (a_globals A)) /\
  (exists A, analyze W_inc 20 = Ok A /\ In (pv q_v) (a_globals A)).
Proof.
  split; [|split]; eexists; (split; [vm_compute; reflexivity|]).
  - split; [apply (In_find path_eqb) | split; apply (In_find str_eqb)]; vm_compute; reflexivity.
  - apply (In_find path_eqb); vm_compute; reflexivity.
  - apply (In_find path_eqb); vm_compute; reflexivity.
Qed.

Example C19_trace_nonempty :
  length (d_trace (exec_prog W_seen 20 W_seen_data)) = 8 /\ d_status (exec_prog W_seen 20 W_seen_data) = Running.
Proof. vm_compute. split; reflexivity. Qed.

(* non-vacuity for the widened language: a program using unless/elsif, case/when, tablerow over a range, cycle,
   liquid, decrement and a nested path is analysed and rendered; the nested path is reported and read on its own *)
Example C19_wide_language_example :
  exists A, analyze W_wide 20 = Ok A /\
    In (Path q_b [SKey q_k; SSub (pv q_c0)]) (a_vars A) /\
    In (ERead (Path q_b [SKey q_k; SSub (pv q_c0)]) true false) (d_trace (exec_prog W_wide 20 W_wide_data)) /\
    length (filter (event_eqb (ERead (pv q_a) false false)) (d_trace (exec_prog W_wide 20 W_wide_data))) = 3 /\
    d_status (exec_prog W_wide 20 W_wide_data) = Running.
Proof.
  eexists. split; [vm_compute; reflexivity|].
  split; [apply (In_find path_eqb); vm_compute; reflexivity|].
  split; [apply (In_find event_eqb); vm_compute; reflexivity|].
  split; vm_compute; reflexivity.
Qed.

(* loop arguments: limit, offset and cols given as paths are all reported; with limit 1 and offset 1 the tablerow
   reads xs, lim, off, c and renders one item, and a following loop with offset: continue resumes at the third item;
   a limit that int() rejects fails the render *)
Example C19_loop_arguments_example :
  exists A, analyze W_loop 20 = Ok A /\
    In (pv q_lim) (a_vars A) /\ In (pv q_off) (a_vars A) /\ In (pv q_c) (a_vars A) /\
    map (fun e => match e with ERead p _ _ => p_root p | _ => [] end)
        (filter (fun e => match e with ERead _ _ _ => true | _ => false end) (rev (d_trace (exec_prog W_loop 20 (W_loop_data (VInt 1))))))
      = [q_xs; q_lim; q_off; q_c; q_x; q_xs; q_x] /\
    d_status (exec_prog W_loop 20 (W_loop_data (VStr q_x))) = Halted.
Proof.
  eexists. split; [vm_compute; reflexivity|].
  do 3 (split; [apply (In_find path_eqb); vm_compute; reflexivity|]). split; vm_compute; reflexivity.
Qed.

(* a[b.k[c]] inside W_wide: three levels, each reported; the reads come innermost first (the trace is newest first) *)
Example C19_nested_paths_example :
  exists A, analyze W_wide 20 = Ok A /\
    forallb (fun p => existsb (path_eqb p) (a_vars A))
            [pv q_c0; Path q_b [SKey q_k; SSub (pv q_c0)]; Path q_a [SSub (Path q_b [SKey q_k; SSub (pv q_c0)])]] = true /\
    map (fun e => match e with ERead p _ _ => p_root p | _ => [] end)
        (firstn 4 (filter (fun e => match e with ERead _ _ _ => true | _ => false end)
                          (d_trace (exec_prog W_wide 20 W_wide_data))))
      = [q_z; q_a; q_b; q_c0].
Proof. eexists. split; [vm_compute; reflexivity|]. split; vm_compute; reflexivity. Qed.
