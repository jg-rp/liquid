(* C20 — Reported locations point at the reported item.  Property theorems only.
   Models: Lex.v (template lexer with start offsets, liquid-tag line scanner, line_col); ExprLex.v (expression tokenizer). *)
From Coq Require Import String.
From LiquidVerif Require Import Prelude Lex LexSpec Lex_Proofs Lex_C20_Proofs ExprLex ExprLex_Proofs MacroArgs.
Local Open Scope string_scope. Local Open Scope list_scope.

(* Offset invariant of the scanner.  For all delimiters (tag and output closing delimiters non-empty), for the
   repaired and the unrepaired variant of the code, and for ALL sources (well-formed or not): every token produced
   by the template lexer starts strictly inside the source, and for output, expression and tag tokens the token's
   value is exactly the source text at its start offset: src[start : start+len(value)] = value.  (Content, raw,
   comment and doc tokens carry the start of their match; their value is a stripped / inner part of the match.) *)
Theorem C20_token_offsets : forall d q src ts, nonempty (d_te d) = true -> nonempty (d_se d) = true ->
  tokenize_q d q src = Ok ts -> forall t, In t ts -> tok_ok src t.
Proof.
  intros d q src ts Hte Hse H t Hin. apply (scan_items_ok d q src Hte Hse (Tok t)).
  exact (items_result_in _ _ _ H Hin).
Qed.
Print Assumptions C20_token_offsets.

(* The LiquidSyntaxError raised by the lexer itself ("expected '}}', found end of file") carries a position
   strictly inside the source. *)
Theorem C20_lexer_error_position : forall d q src p, nonempty (d_te d) = true -> nonempty (d_se d) = true ->
  In (LexErr p) (scan d q src) -> (p < N.of_nat (length src))%N.
Proof. intros d q src p Hte Hse Hin. exact (scan_items_ok d q src Hte Hse (LexErr p) Hin). Qed.
Print Assumptions C20_lexer_error_position.

(* Composition of offsets, as used by the expression tokenizer (parent_token.start_index + match.start()) and by
   the liquid tag: if a token's value v is the source text at offset a, then the piece of v at relative offset m
   is the source text at offset a + m. *)
Theorem C20_offset_composition : forall (src : str) a (v : str) m l,
  sub src a (length v) = v -> m + l <= length v -> sub src (a + m) l = sub v m l.
Proof. exact sub_sub. Qed.
Print Assumptions C20_offset_composition.

(* Inner tokens of a liquid tag (start = expression token's start + offset inside the expression): if the liquid tag's
   expression token points at its own text in the source, then every inner tag / expression token of the line scanner
   starts inside that expression and points at its own text in the source. *)
Theorem C20_liquid_inner_offsets : forall d (src : str) base expr ts,
  sub src (N.to_nat base) (length expr) = expr ->
  liquid_tokens d base expr = Ok ts -> forall t, In t ts ->
  (N.to_nat (t_start t) < N.to_nat base + length expr) /\
  sub src (N.to_nat (t_start t)) (length (t_value t)) = t_value t.
Proof.
  intros d src base expr ts Hsrc H t Hin.
  destruct (liquid_tokens_ok d base expr ts t H Hin) as (o & Hs & Ho & Hv).
  rewrite Hs. replace (N.to_nat (base + N.of_nat o)) with (N.to_nat base + o) by lia.
  split; [lia|]. exact (sub_found src expr _ _ o Hsrc Hv).
Qed.
Print Assumptions C20_liquid_inner_offsets.

(* Expression tokens (liquid/builtin/expressions/_tokenize.py, modelled rule by rule in ExprLex.v).  For every
   expression text src, every parent offset base, every token the tokenizer yields and the token carried by its own
   syntax error ("unexpected 'x'", "unknown operator"): the start is base + o with o strictly inside the expression,
   and the token's value is the expression text at  o + value_offset,  where value_offset is 0 for every kind except
     string       1                         (the text after the opening quote),
     identindex   1 + leading whitespace    (the digits after "[" and whitespace),
     identstring  2 + leading whitespace    (the text after "[", whitespace and the quote);
   for error tokens the value is the text at o itself. *)
Theorem C20_expr_token_offsets : forall base src i, In i (etokenize base src) -> eitem_ok base src i.
Proof.
  intros base src i Hin. apply (ego_ok base src src 0 [] eq_refl). simpl. rewrite N.add_0_r. exact Hin.
Qed.
Print Assumptions C20_expr_token_offsets.

(* a STRING match is: a quote, the value, the same quote *)
Theorem C20_expr_string_enclosed : forall s vo vl tot, ematch s = EM EString vo vl tot ->
  exists q, is_quote q = true /\ sub s 0 1 = [q] /\ sub s (1 + vl) 1 = [q] /\ tot = vl + 2.
Proof.
  intros s vo vl tot H. destruct s as [|c r]; [discriminate|].
  pose proof (ematch_rule c r) as R. rewrite H in R. destruct R as [_ R].
  destruct (R eq_refl) as (Q & u & n & FF & ->). apply find_first_qclose in FF as [-> FF].
  exists c. split; [exact Q|]. split; [reflexivity|]. split; [exact FF|lia].
Qed.
Print Assumptions C20_expr_string_enclosed.

(* composition with the template lexer: if the expression token (value expr, start base) points at its own text in the
   template source (C20_token_offsets, C20_liquid_inner_offsets), every token of the expression points at its own text
   in the TEMPLATE source: start_index = parent_token.start_index + match.start() is right. *)
Theorem C20_expr_tokens_in_source : forall (src : str) base expr t,
  sub src (N.to_nat base) (length expr) = expr ->
  In (ETok t) (etokenize base expr) ->
  let o := N.to_nat (e_start t) - N.to_nat base in
  N.to_nat base <= N.to_nat (e_start t) < N.to_nat base + length expr /\
  sub src (N.to_nat (e_start t) + value_offset (e_kind t) (skipn (S o) expr)) (length (e_value t)) = e_value t.
Proof.
  intros src base expr t Hsrc Hin o.
  destruct (C20_expr_token_offsets base expr _ Hin) as (o' & Hs & Ho & Hv).
  assert (o = o') by (unfold o; lia). subst o'. split; [lia|].
  replace (N.to_nat (e_start t)) with (N.to_nat base + o) by lia. rewrite <- Nat.add_assoc.
  exact (sub_found src expr _ _ _ Hsrc Hv).
Qed.
Print Assumptions C20_expr_tokens_in_source.

(* Line and column (Span.line_col, LiquidError._error_context): for every index inside the source the computation
   succeeds — so formatting an error whose token comes from the lexer cannot raise ValueError — and returns the
   1-based number of the line containing the index and the distance of the index from that line's start. *)
Theorem C20_line_col_total : forall src index, (index < N.of_nat (length src))%N ->
  exists k c, line_col src index = Some (N.of_nat (S k), c)
              /\ k < length (line_lens 0 src)
              /\ (nsum (firstn k (line_lens 0 src)) + c = index)%N
              /\ (c < nth k (line_lens 0 src) 0)%N.
Proof.
  intros src index H. unfold line_col.
  destruct (find_line_spec (line_lens 0 src) index 0 1) as (k & c & E & Hk & Hs & Hc).
  - lia.
  - rewrite line_lens_cover. lia.
  - exists k, c. rewrite E. repeat split; auto; try lia. f_equal. f_equal. lia.
Qed.
Print Assumptions C20_line_col_total.

(* the lines partition the source ... *)
Theorem C20_lines_cover_source : forall src, nsum (line_lens 0 src) = N.of_nat (length src).
Proof. exact line_lens_cover. Qed.
Print Assumptions C20_lines_cover_source.

(* ... and an index at or beyond the end of the source is exactly the ValueError case *)
Theorem C20_line_col_out_of_range : forall src index, (N.of_nat (length src) <= index)%N -> line_col src index = None.
Proof. intros src index H. apply find_line_none. rewrite line_lens_cover. lia. Qed.
Print Assumptions C20_line_col_out_of_range.

(* non-vacuity / reading aids *)
Example C20_tokens_example :
  tokenize default_delims (lit "a {%- if x.y -%} {{ z | f }}") =
  Ok [ {| t_kind := KContent; t_value := lit "a"; t_start := 0 |};
       {| t_kind := KTag; t_value := lit "if"; t_start := 6 |};
       {| t_kind := KExpr; t_value := lit "x.y"; t_start := 9 |};
       {| t_kind := KOutput; t_value := lit "{{ z | f }}"; t_start := 17 |};
       {| t_kind := KExpr; t_value := lit "z | f"; t_start := 20 |} ].
Proof. vm_compute. reflexivity. Qed.

Example C20_expr_tokens_example :
  etokenize 10 (lit "a.b[ 'k' ] | f: (1..n), 'x y' >= 2.5 and q? =! z") =
  [ ETok {| e_kind := EWord; e_value := lit "a"; e_start := 10 |}; ETok {| e_kind := EDot; e_value := lit "."; e_start := 11 |};
    ETok {| e_kind := EWord; e_value := lit "b"; e_start := 12 |}; ETok {| e_kind := EIdentString; e_value := lit "k"; e_start := 13 |};
    ETok {| e_kind := EPipe; e_value := lit "|"; e_start := 21 |}; ETok {| e_kind := EWord; e_value := lit "f"; e_start := 23 |};
    ETok {| e_kind := EColon; e_value := lit ":"; e_start := 24 |}; ETok {| e_kind := ERangeLit; e_value := lit "("; e_start := 26 |};
    ETok {| e_kind := EInteger; e_value := lit "1"; e_start := 27 |}; ETok {| e_kind := ERange; e_value := lit ".."; e_start := 28 |};
    ETok {| e_kind := EWord; e_value := lit "n"; e_start := 30 |}; ETok {| e_kind := ERparen; e_value := lit ")"; e_start := 31 |};
    ETok {| e_kind := EComma; e_value := lit ","; e_start := 32 |}; ETok {| e_kind := EString; e_value := lit "x y"; e_start := 34 |};
    ETok {| e_kind := EGe; e_value := lit ">="; e_start := 40 |}; ETok {| e_kind := EFloat; e_value := lit "2.5"; e_start := 43 |};
    ETok {| e_kind := EKeyword; e_value := lit "and"; e_start := 47 |}; ETok {| e_kind := EWord; e_value := lit "q?"; e_start := 51 |};
    EErrOp (lit "=!") 54 ].
Proof. vm_compute. reflexivity. Qed.

Example C20_line_col_example : line_col (lit "ab" ++ [10%N] ++ lit "cd" ++ [13; 10]%N ++ lit "e") 7 = Some (3%N, 0%N).
Proof. vm_compute. reflexivity. Qed.
