(* C05 -- Autoescape keeps render data from injecting HTML.  Property theorems only.
   Model (Escape.v): strings with a Markup flag, markupsafe.escape, the Markup algebra (+, join, replace, split, slicing, case,
   strip keep the flag and escape their arguments; plain-str operations drop it), html.unescape, the filters' autoescape
   branches, to_liquid_string, string literals, capture, and an interpreter for text / output / echo / assign / capture /
   if-unless-case / for / cycle / include / render / translate, and the five translation filters under both registrations.
   [exec true] is Environment(autoescape=True). *)
From LiquidVerif Require Import Prelude Escape Escape_Proofs.
Local Open Scope N_scope.

(* First clause, full strength: for EVERY template of the modelled language whose literal texts hold no raw < > quote, using ANY
   of the modelled filters in chains of any length (including t / gettext / ngettext / pgettext / npgettext with any message
   variables, plural and count, registered by extra=True, or registered by hand provided their message texts are template
   literals) and the translate tag, and every state whose values marked safe hold none (plain data is not
   constrained at all), the rendered text holds no raw < > double or single quote. *)
Theorem C05_no_injection : forall fuel st p out st',
  forallb (stmt_ok no_raw any_filter) p = true ->
  state_inv (fun t => no_raw t = true) st ->
  exec true fuel st p = Ok (out, st') -> no_raw out = true.
Proof.
  intros fuel st p out st' Hp Hst H.
  eapply (exec_inv (fun t => no_raw t = true) no_raw any_filter); try eassumption.
  - reflexivity.
  - exact (allP_app_true not_raw).
  - intro t. apply escape_wf.
  - intros t Ht. exact Ht.
  - intro n. apply nat_to_str_wf.
  - reflexivity.
  - intros f _. apply no_raw_closed.
Qed.
Print Assumptions C05_no_injection.

(* ... in particular for render data made of plain strings and arrays of plain strings, whatever characters they hold *)
Theorem C05_no_injection_plain_data : forall fuel data p out st',
  forallb (stmt_ok no_raw any_filter) p = true ->
  forallb (fun kv => plain_value (snd kv)) data = true ->
  exec true fuel {| st_scopes := []; st_locals := []; st_globals := data; st_cycle := 0 |} p = Ok (out, st') ->
  no_raw out = true.
Proof. intros fuel data p out st' Hp Hd. apply C05_no_injection; [exact Hp|apply plain_data_inv, Hd]. Qed.
Print Assumptions C05_no_injection_plain_data.

(* Both clauses (no raw special character AND every ampersand starts an entity) for templates that use no filter that cuts or
   edits a string: escape escape_once upcase downcase append prepend join first last default size strip_html url_decode
   base64_decode.  _partial: slice split replace remove (and strip, lstrip, rstrip, capitalize) are excluded; for slice, split and
   remove the second clause is false, see below (replace with an empty replacement is remove). *)
Theorem C05_entities_partial : forall fuel st p out st',
  forallb (stmt_ok wf_lit keeps_entities) p = true ->
  state_inv wf_text st ->
  exec true fuel st p = Ok (out, st') -> no_raw out = true /\ amp_ok out = true.
Proof.
  intros fuel st p out st' Hp Hst H.
  eapply (exec_inv wf_text wf_lit keeps_entities); try eassumption.
  - split; reflexivity.
  - exact wf_text_app.
  - exact escape_wf.
  - intros t Ht. apply andb_true_iff. exact Ht.
  - exact nat_to_str_wf.
  - split; reflexivity.
  - exact wf_text_closed.
Qed.
Print Assumptions C05_entities_partial.

(* The second clause is refuted for the cutting filters, with x = <a&b>:
   x | escape | slice: 0, 2 = &l ;  x | escape | split: l | join: - = &-t;a&amp;b&gt; ;  x | escape | remove: lt = &;a&amp;b&gt;
   -- an ampersand that starts no entity, although no raw special character appears. *)
Theorem C05_entities_refuted :
  out_of [SOut (EFilt (EFilt xvar FEscape) (FSlice 0 2))] = Some [38; 108] /\
  out_of [SOut (EFilt (EFilt (EFilt xvar FEscape) (FSplit (ALit [108]))) (FJoin (Some (ALit [45]))))]
    = Some [38; 45; 116; 59; 97; 38; 97; 109; 112; 59; 98; 38; 103; 116; 59] /\
  out_of [SOut (EFilt (EFilt xvar FEscape) (FRemove (ALit [108; 116])))]
    = Some [38; 59; 97; 38; 97; 109; 112; 59; 98; 38; 103; 116; 59] /\
  amp_ok [38; 108] = false /\ amp_ok [38; 45; 116; 59] = false /\ amp_ok [38; 59; 97] = false /\
  no_raw [38; 108] = true.
Proof. repeat split; vm_compute; reflexivity. Qed.
Print Assumptions C05_entities_refuted.

(* Values marked safe are output unchanged: a Markup value, and an array of Markup values. *)
Theorem C05_safe_passthrough : forall fuel st x t,
  lookup st x = VS (markup t) ->
  exec true (S (S fuel)) st [SOut (EAtom (AVar x))] = Ok (t, st).
Proof.
  intros fuel st x t H. cbn [exec bind]. unfold eval. cbn [eval_expr eval_atom]. rewrite H.
  cbn [to_liquid_string out_str esc_arg markup sf tx]. rewrite app_nil_r. reflexivity.
Qed.
Print Assumptions C05_safe_passthrough.

Theorem C05_safe_list_passthrough : forall fuel st x l,
  lookup st x = VL l -> forallb sf l = true ->
  exec true (S (S fuel)) st [SOut (EAtom (AVar x))] = Ok (concat (map tx l), st).
Proof.
  intros fuel st x l H Hl. cbn [exec bind]. unfold eval. cbn [eval_expr eval_atom]. rewrite H.
  cbn [to_liquid_string]. rewrite app_nil_r.
  rewrite (map_ext_in (out_str true) tx l); [reflexivity|]. intros s Hs. rewrite forallb_forall in Hl. unfold out_str, esc_arg. rewrite (Hl s Hs). reflexivity.
Qed.
Print Assumptions C05_safe_list_passthrough.

(* Enabling autoescape changes nothing when no special character occurs: for every template whose literals hold none of
   < > & and the quotes, every render data made of strings that hold none, the two renderings are the same text (they run in
   lock step: C05_lock_step).  split (arrays: str(list) holds quotes) the three flag-only text functions and the translation filters are excluded. *)
Theorem C05_identity_without_specials : forall data p,
  forallb (stmt_ok clean plain_filters) p = true -> clean_data data = true ->
  run_escape {| e_ae := true; e_data := data; e_prog := p |} = run_escape {| e_ae := false; e_data := data; e_prog := p |}.
Proof.
  intros data p Hp Hd. unfold run_escape. cbn [e_ae e_data e_prog].
  set (s0 := {| st_scopes := []; st_locals := []; st_globals := data; st_cycle := 0 |}).
  assert (Hst : Rstate s0 s0) by (split; [constructor|split; [constructor|split; [apply Rscope_refl, Hd|reflexivity]]]).
  pose proof (exec_rel 200 s0 s0 p Hp Hst) as H.
  destruct (exec true 200 s0 p) as [[o s]|e|], (exec false 200 s0 p) as [[o' s']|e'|]; try contradiction; [|reflexivity].
  destruct H as (-> & _). reflexivity.
Qed.
Print Assumptions C05_identity_without_specials.

Theorem C05_lock_step : forall fuel s s' p,
  forallb (stmt_ok clean plain_filters) p = true -> Rstate s s' ->
  Rres (exec true fuel s p) (exec false fuel s' p).
Proof. exact exec_rel. Qed.
Print Assumptions C05_lock_step.

(* The model tells the two seeded behaviours of the translation filters apart from the current code: (hand registration)
   escaping the %(name)s variables only when autoescape_message lets <b> through; (extra registration) a plural taken from
   data that skips to_liquid_string because it already is a str is printed raw by ngettext, and only by ngettext. *)
Theorem C05_translation_variants_refuted :
  (let run vr := text_of (trans_apply true (look_of d_hostile) vr TT false [] [([97], AVar [120])] (VS (markup m_hello))) in
   no_raw (run TrCurrent) = true /\ no_raw (run TrVarsOnlyIfAem) = false /\ run TrPluralStrRaw = run TrCurrent) /\
  (let run vr := text_of (trans_apply true (look_of d_hostile) vr TNgettext true [AVar [121]; ALit [50]] [] (VS (markup [111; 110; 101]))) in
   no_raw (run TrCurrent) = true /\ no_raw (run TrPluralStrRaw) = false /\ run TrVarsOnlyIfAem = run TrCurrent) /\
  (let run vr := text_of (trans_apply true (look_of d_hostile) vr TNpgettext true [ALit [99]; AVar [121]; ALit [50]] [] (VS (markup [111; 110; 101]))) in
   run TrPluralStrRaw = run TrCurrent).
Proof. repeat split; vm_compute; reflexivity. Qed.
Print Assumptions C05_translation_variants_refuted.

(* The hypothesis on hand-registered filters (message texts are literals) is needed: with autoescape_message = False the left
   value is trusted and printed as it is; with extra=True it is escaped. *)
Theorem C05_hand_registration_trusts_message :
  no_raw (text_of (trans_apply true (look_of d_hostile) TrCurrent TT false [] [] (VS (plain [60; 98; 62])))) = false /\
  no_raw (text_of (trans_apply true (look_of d_hostile) TrCurrent TT true [] [] (VS (plain [60; 98; 62])))) = true.
Proof. split; vm_compute; reflexivity. Qed.
Print Assumptions C05_hand_registration_trusts_message.

(* non-vacuity and reading aids *)
Example C05_example_on :   (* {% capture z %}{{ x | escape }}{% endcapture %}{{ z | append: x | upcase }} with x = <a&b> *)
  out_of [SCapture [122] [SOut (EFilt xvar FEscape)];
          SOut (EFilt (EFilt (EAtom (AVar [122])) (FAppend (AVar [120]))) FUpcase)]
  = Some [38;76;84;59;65;38;65;77;80;59;66;38;71;84;59; 38;76;84;59;65;38;65;77;80;59;66;38;71;84;59].   (* &LT;A&AMP;B&GT; twice *)
Proof. vm_compute. reflexivity. Qed.

Example C05_hypotheses_satisfiable :
  forallb (stmt_ok no_raw any_filter) [SText [97]; SOut (EFilt (EFilt xvar (FSplit (ALit [108]))) (FJoin None))] = true /\
  forallb (stmt_ok wf_lit keeps_entities) [SOut (EFilt (EFilt xvar FEscapeOnce) (FAppend (ALit [97; 59])))] = true /\
  forallb (stmt_ok clean plain_filters) [SOut (EFilt xvar (FReplace (ALit [97]) (AVar [120])))] = true /\
  clean_data [([120], VS (plain [97; 98]))] = true /\
  (* translation: by extra=True on a data message with a data plural; by hand on literal messages with data variables; the tag *)
  forallb (stmt_ok no_raw any_filter)
    [SOut (EFilt xvar (FTrans TNgettext true [AVar [121]; AVar [110]] [([97], AVar [120])]));
     SOut (EFilt (EAtom (ALit m_hello)) (FTrans TT false [] [([97], AVar [120]); ([112; 108; 117; 114; 97; 108], ALit m_hello); ([99; 111; 117; 110; 116], AVar [110])]));
     STranslate [([97], AVar [120])] [MText [72; 105; 32]; MVar [97]] (Some [MVar [97]; MVar [121]])] = true /\
  (* ... and a hand-registered filter on a data message is rejected by the hypothesis *)
  forallb (stmt_ok no_raw any_filter) [SOut (EFilt xvar (FTrans TT false [] []))] = false.
Proof. repeat split; vm_compute; reflexivity. Qed.
