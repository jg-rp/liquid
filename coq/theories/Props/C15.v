(* C15 — Rendered partials and macros are isolated from their caller.  The property's theorems, proved from the lemmas of
   Scope_Proofs and Scope_Iso_Proofs. *)
From Coq Require Import String.
From LiquidVerif Require Import Prelude PyPrims Scope Scope_Proofs Scope_Iso_Proofs.
Local Open Scope string_scope. Local Open Scope list_scope.

(* non-interference: two caller contexts with the same root globals (and string flags) in which the render tag's arguments and bound
   variable evaluate alike get the same text and completion from the partial, whatever their block scopes, assigned
   and captured variables, counters, macros and loop state are *)
Theorem C15_render_isolated : forall f E name var args c1 c2,
  base c1 = base c2 -> cfg c1 = cfg c2 ->
  eval_kwargs (e_uk E) c1 args [] = eval_kwargs (e_uk E) c2 args [] ->
  (forall p lp a, var = Some (p, lp, a) -> eval_path (e_uk E) c1 p = eval_path (e_uk E) c2 p) ->
  obs (exec (S f) E (NRender name var args) c1) = obs (exec (S f) E (NRender name var args) c2).
Proof. exact render_isolated. Qed.
Print Assumptions C15_render_isolated.

(* with literal arguments the partial's output is a function of the root globals (and string flags) alone *)
Theorem C15_render_ignores_caller_locals : forall f E name args c1 c2,
  base c1 = base c2 -> cfg c1 = cfg c2 -> literal_args args ->
  obs (exec (S f) E (NRender name None args) c1) = obs (exec (S f) E (NRender name None args) c2).
Proof. exact render_ignores_caller_locals. Qed.
Print Assumptions C15_render_ignores_caller_locals.

(* the variables a partial assigns (captures, counts, the macros it defines) are never visible to the caller: the
   caller's context after the tag IS its context before the tag, however the partial ended *)
Theorem C15_render_leaves_caller : forall f E name var args c c' o s,
  exec f E (NRender name var args) c = Done c' o s -> c' = c.
Proof.
  intros f E name var args c c' o s H. destruct f as [|f]; [discriminate|].
  exact (ends_done _ _ _ _ _ (render_returns_caller E (exec f E) name var args c) H).
Qed.
Print Assumptions C15_render_leaves_caller.

(* "sees only its explicit arguments, its bound variable and global data": what a partial resolves when it starts *)
Theorem C15_only_explicit_args : forall c na dis x,
  resolve (copy c na dis) x = first_hit x (na :: base c ++ [builtin_ns]).
Proof. exact partial_sees_only_arguments_and_globals. Qed.
Print Assumptions C15_only_explicit_args.

(* in particular a partial rendered from inside another partial does not see the enclosing partial's arguments *)
Theorem C15_nested_partial_isolated : forall c outer1 outer2 inner x,
  resolve (nested_partial_ctx c outer1 inner) x = resolve (nested_partial_ctx c outer2 inner) x.
Proof. reflexivity. Qed.
Print Assumptions C15_nested_partial_isolated.

(* witness of the repaired defect: with the old copy (namespace in front of the CALLER's globals chain) it did *)
Theorem C15_nested_partial_isolated_old_refuted : ~ only_explicit_args_old.
Proof.
  intro H. specialize (H ctx0 [(kx, VInt 1)] [(kx, VInt 2)] [] kx). vm_compute in H. discriminate.
Qed.
Print Assumptions C15_nested_partial_isolated_old_refuted.

(* render ... for: the items are rendered independently — what the tag prints is the concatenation of rendering the
   partial for each item in a FRESH copy of the context, so nothing assigned or counted for one item is seen by the next *)
Theorem C15_render_for_items_independent : forall render1 key na items c0,
  obs (render_loop render1 key na items c0) =
  each_item (fun itm i => render1 (set_gl_head c0 (dict_set key itm (dict_set s_forloop (forloop_drop i (zlen items)) na)))) items 0%Z.
Proof. intros render1 key na items c0. unfold render_loop. apply loop_items_each_item. Qed.
Print Assumptions C15_render_for_items_independent.

(* witness of the repaired defect: with ONE copied context for all items the second item saw the first one's variables *)
Theorem C15_render_for_items_independent_old_refuted : ~ render_for_independent_old.
Proof.
  intro H. specialize (H leak_render1 (slit "p") [] [VInt 1; VInt 2] (copy ctx0 [] [TInclude])).
  vm_compute in H. discriminate.
Qed.
Print Assumptions C15_render_for_items_independent_old_refuted.

(* include is disabled in a rendered partial: once the nodes before it have completed, the render tag raises
   DisabledTagError (the include may sit behind any prefix; inside blocks the disabled tags are unchanged, next theorem) *)
Theorem C15_no_include_in_render : forall f E name args pname pvar pargs pre post c na c1 o1,
  e_mode E = MStrict ->
  alookup name (e_loader E) = Some (pre ++ NInclude pname pvar pargs :: post) ->
  eval_kwargs (e_uk E) c args [] = Ok na ->
  seq_nodes (exec (S f) E) pre (push (copy c na [TInclude]) [(s_partial, VBool true)]) = Done c1 o1 Normal ->
  exec (S (S f)) E (NRender name None args) c = Done c o1 (Raise EDisabledTag).
Proof.
  intros f E name args pname pvar pargs pre post c na c1 o1 Hm Hl Ha Hs.
  rewrite exec_S. cbn [exec_step]. rewrite Hl, Ha, Hm. cbn [lift]. unfold run_template.
  rewrite (tmpl_nodes_app _ _ _ _ (NInclude pname pvar pargs :: post) _ _ _ Hs). cbn [tmpl_nodes].
  rewrite include_disabled_raises by (rewrite (disabled_preserved_seq _ _ _ _ _ _ _ Hs); reflexivity).
  cbn [after]. rewrite app_nil_r. reflexivity.
Qed.
Print Assumptions C15_no_include_in_render.

(* wherever an include tag is reached with include disabled it raises, and nothing executed inside a context —
   at any block depth — changes the disabled tags *)
Theorem C15_include_disabled_everywhere : forall f E,
  (forall name var args c, is_disabled TInclude c = true ->
     exec (S f) E (NInclude name var args) c = Done c [] (Raise EDisabledTag)) /\
  (forall n c c' o s, exec f E n c = Done c' o s -> is_disabled TInclude c' = is_disabled TInclude c) /\
  (forall c na, is_disabled TInclude (copy c na [TInclude]) = true /\ is_disabled TInclude (copy c na [TInclude; TBlock]) = true).
Proof.
  intros f E. split; [|split].
  - intros. apply include_disabled_raises. assumption.
  - intros n c c' o s H. apply same_frame_is_disabled, (exec_frame _ _ _ _ _ _ _ H).
  - intros c na. split; reflexivity.
Qed.
Print Assumptions C15_include_disabled_everywhere.

(* macros: a body invoked with call is isolated from the caller's locals in the same way *)
Theorem C15_macro_isolated : forall f E name kws c1 c2,
  base c1 = base c2 -> cfg c1 = cfg c2 ->
  alookup name (macros c1) = alookup name (macros c2) ->
  (forall ps body, alookup name (macros c1) = Some (ps, body) ->
     macro_namespace (e_uk E) c1 ps kws = macro_namespace (e_uk E) c2 ps kws) ->
  obs (exec (S f) E (NCall name kws) c1) = obs (exec (S f) E (NCall name kws) c2).
Proof. exact call_isolated. Qed.
Print Assumptions C15_macro_isolated.

Theorem C15_macro_ignores_caller_locals : forall f E name kws c1 c2,
  base c1 = base c2 -> cfg c1 = cfg c2 -> alookup name (macros c1) = alookup name (macros c2) ->
  literal_args kws ->
  (forall ps body, alookup name (macros c1) = Some (ps, body) -> literal_params ps) ->
  obs (exec (S f) E (NCall name kws) c1) = obs (exec (S f) E (NCall name kws) c2).
Proof.
  intros f E name kws c1 c2 Hb Hg Hm Hk Hp. apply call_isolated; [exact Hb|exact Hg|exact Hm|].
  intros ps body Hl. apply macro_namespace_literal; [exact Hk|exact (Hp ps body Hl)].
Qed.
Print Assumptions C15_macro_ignores_caller_locals.

Theorem C15_macro_leaves_caller : forall f E name kws c c' o s,
  exec f E (NCall name kws) c = Done c' o s -> c' = c.
Proof.
  intros f E name kws c c' o s H. destruct f as [|f]; [discriminate|].
  exact (ends_done _ _ _ _ _ (call_returns_caller E (exec f E) name kws c) H).
Qed.
Print Assumptions C15_macro_leaves_caller.

Theorem C15_no_include_in_macro : forall f E name kws ps pname pvar pargs pre post c nm c1 o1,
  alookup name (macros c) = Some (ps, pre ++ NInclude pname pvar pargs :: post) ->
  macro_namespace (e_uk E) c ps kws = Ok nm ->
  seq_nodes (exec (S f) E) pre (copy c nm [TInclude; TBlock]) = Done c1 o1 Normal ->
  exec (S (S f)) E (NCall name kws) c = Done c o1 (Raise EDisabledTag).
Proof.
  intros f E name kws ps pname pvar pargs pre post c nm c1 o1 Hl Hn Hs.
  rewrite exec_S. cbn [exec_step]. rewrite Hl, Hn. cbn [lift].
  rewrite (seq_nodes_app _ _ (NInclude pname pvar pargs :: post) _ _ _ Hs). cbn [seq_nodes].
  rewrite include_disabled_raises by (rewrite (disabled_preserved_seq _ _ _ _ _ _ _ Hs); reflexivity).
  rewrite app_nil_r. reflexivity.
Qed.
Print Assumptions C15_no_include_in_macro.

(* ---- through overridden inheritance blocks (liquid.extra extends / block) ---- *)
(* a partial rendered from inside an overridden block resolves its arguments, the ROOT globals and now/today only:
   nothing the template being extended assigned, captured or bound around the block *)
Theorem C15_render_in_block_only_explicit_args : forall c na dis x,
  resolve (copy (copy_block c) na dis) x = first_hit x (na :: base c ++ [builtin_ns]).
Proof. intros c na dis x. apply (partial_sees_only_arguments_and_globals (copy_block c) na dis x). Qed.
Print Assumptions C15_render_in_block_only_explicit_args.

(* C15_render_isolated through blocks: from inside the block-scoped copy a render tag prints and ends exactly as in the
   context of the template being extended, whenever its arguments evaluate alike in the two (e.g. literals) *)
Theorem C15_render_isolated_through_block : forall f E name var args c,
  eval_kwargs (e_uk E) (copy_block c) args [] = eval_kwargs (e_uk E) c args [] ->
  (forall p lp a, var = Some (p, lp, a) -> eval_path (e_uk E) (copy_block c) p = eval_path (e_uk E) c p) ->
  obs (exec (S f) E (NRender name var args) (copy_block c)) = obs (exec (S f) E (NRender name var args) c).
Proof. intros f E name var args c Ha Hv. apply render_isolated; try reflexivity; assumption. Qed.
Print Assumptions C15_render_isolated_through_block.

(* the whole block tag: an overriding block consisting of a render tag with literal arguments prints what that tag
   prints at the top level of the base template *)
Theorem C15_block_render_isolated : forall f E bname own ovs name args c,
  is_disabled TBlock c = false -> overrides c = Some ovs ->
  alookup bname ovs = Some [NRender name None args] -> literal_args args ->
  obs (exec (S (S f)) E (NBlock bname own) c) =
  match obs (exec (S f) E (NRender name None args) c) with
  | Some (out, Normal) => Some (out ++ [], Normal)
  | r => r
  end.
Proof.
  intros f E bname own ovs name args c Hd Ho Hl Hlit. rewrite exec_S. unfold exec_step at 1. rewrite Hd, Ho, Hl. cbn [seq_nodes].
  pose proof (render_ignores_caller_locals f E name args (copy_block c) c eq_refl eq_refl Hlit) as H.
  destruct (exec (S f) E (NRender name None args) (copy_block c)) as [c1 o1 s1|];
    destruct (exec (S f) E (NRender name None args) c) as [c2 o2 s2|]; simpl in H; try discriminate; [|reflexivity].
  inversion H; subst. destruct s2; reflexivity.
Qed.
Print Assumptions C15_block_render_isolated.

Theorem C15_macro_isolated_through_block : forall f E name kws c,
  alookup name (macros (copy_block c)) = alookup name (macros c) ->
  (forall ps body, alookup name (macros (copy_block c)) = Some (ps, body) ->
     macro_namespace (e_uk E) (copy_block c) ps kws = macro_namespace (e_uk E) c ps kws) ->
  obs (exec (S f) E (NCall name kws) (copy_block c)) = obs (exec (S f) E (NCall name kws) c).
Proof. intros f E name kws c Hm Hn. apply call_isolated; try reflexivity; assumption. Qed.
Print Assumptions C15_macro_isolated_through_block.

(* what an overriding block assigns, captures or counts never reaches the template being extended *)
Theorem C15_block_leaves_base_template : forall f E bname own ovs c c' o s,
  overrides c = Some ovs -> exec f E (NBlock bname own) c = Done c' o s -> c' = c.
Proof.
  intros f E bname own ovs c c' o s Ho H. destruct f as [|f]; [discriminate|].
  exact (ends_done _ _ _ _ _ (block_returns_caller E (exec f E) bname own ovs c Ho) H).
Qed.
Print Assumptions C15_block_leaves_base_template.

(* include stays disabled inside an inheritance block rendered within a partial or macro body (with
   C15_include_disabled_everywhere: it raises wherever it is reached there) *)
Theorem C15_block_keeps_include_disabled : forall c, is_disabled TInclude (copy_block c) = is_disabled TInclude c.
Proof. reflexivity. Qed.
Print Assumptions C15_block_keeps_include_disabled.

(* witness of the repaired defect: the block-scoped copy used to drop the disabled tags *)
Theorem C15_block_keeps_include_disabled_old_refuted :
  ~ (forall c, is_disabled TInclude (copy_block_enabled_old c) = is_disabled TInclude c).
Proof. intro H. specialize (H (copy ctx0 [] [TInclude])). vm_compute in H. discriminate. Qed.
Print Assumptions C15_block_keeps_include_disabled_old_refuted.

(* witness for the seeded variant (root globals not propagated by the block-scoped branch of copy) *)
Theorem C15_render_in_block_isolated_old_refuted : ~ render_in_block_isolated_old.
Proof.
  intro H. specialize (H (assign ctx0 kx (VStr (slit "LEAK"))) [] [TInclude] kx). vm_compute in H. discriminate.
Qed.
Print Assumptions C15_render_in_block_isolated_old_refuted.

(* ---- non-vacuity and reading aids (tests) ---- *)
Definition ex_out (r : string) := NOut (FPlain (EPath (Path (slit r) [])) []).
Definition ex_assign (x v : string) := NAssign (slit x) (FPlain (ELit (LStr (slit v))) []).
Definition ex_p := [ex_out "x"; ex_out "y"; ex_assign "y" "py"; ex_out "y"].

(* the caller's y is invisible to the partial and survives it; a nested partial does not see the outer argument x *)
Example C15_isolation_example :
  run_case (Case MStrict UDefault default_flags [(slit "p", ex_p); (slit "q", [NText (slit "<"); NRender (slit "p") None []; NText (slit ">")])]
              [(slit "g", VInt 1)] [] [] []
              [ex_assign "y" "cy"; NRender (slit "p") None [(slit "x", ELit (LInt 1))]; ex_out "y";
               NRender (slit "q") None [(slit "x", ELit (LInt 2)); (slit "y", ELit (LInt 3))]; ex_out "y"])
  = Ok (slit "1pycy<py>cy").
Proof. vm_compute. reflexivity. Qed.

Example C15_include_disabled_example :
  run_case (Case MStrict UDefault default_flags [(slit "p", [NText (slit "a"); NFor (slit "i") (IRange 1 2) [NInclude (slit "r") None []] []]); (slit "r", [])]
              [] [] [] [] [NRender (slit "p") None []]) = Err EDisabledTag.
Proof. vm_compute. reflexivity. Qed.

Example C15_render_for_example :
  run_case (Case MStrict UDefault default_flags [(slit "p", [NText (slit "["); ex_out "seen"; NText (slit "]"); ex_assign "seen" "s"; NIncr (slit "n")])]
              [(slit "l", VList [VInt 1; VInt 2])] [] [] [] [NRender (slit "p") (Some (Path (slit "l") [], true, None)) []])
  = Ok (slit "[]0[]0").
Proof. vm_compute. reflexivity. Qed.

(* two callers satisfying the hypotheses of C15_render_isolated that differ in scopes, locals and counters *)
Example C15_hypotheses_satisfiable :
  let c1 := Ctx [[(slit "x", VInt 9)]] [(slit "y", VInt 8)] [[(slit "g", VInt 1)]] [[(slit "g", VInt 1)]] [(slit "x", 3%Z)] [] [] None default_flags in
  let c2 := Ctx [] [] [[(slit "g", VInt 1)]] [[(slit "g", VInt 1)]] [] [] [] None default_flags in
  base c1 = base c2 /\ cfg c1 = cfg c2 /\ eval_kwargs UDefault c1 [(slit "a", EPath (Path (slit "g") []))] [] = eval_kwargs UDefault c2 [(slit "a", EPath (Path (slit "g") []))] [].
Proof. vm_compute. repeat split. Qed.

(* the base template assigns secret and binds i around the block; the partial rendered from the overriding block sees
   neither, the block itself (block scope) sees both; the block's own assignment does not reach the base template *)
Example C15_inheritance_example :
  run_case (Case MStrict UDefault default_flags
              [(slit "base", [ex_assign "secret" "LEAK"; NFor (slit "i") (IRange 7 7) [NText (slit "<"); NBlock (slit "b") [NText (slit "base")]; NText (slit ">")] []; ex_out "w"]);
               (slit "p", [NText (slit "["); ex_out "secret"; ex_out "i"; ex_out "g"; NText (slit "]")])]
              [(slit "g", VStr (slit "G"))] [] [] []
              [NExtends (slit "base") [(slit "b", [ex_out "secret"; ex_out "i"; ex_assign "w" "W"; NRender (slit "p") None []])]])
  = Ok (slit "<LEAK7[G]>").
Proof. vm_compute. reflexivity. Qed.

(* a rendered partial that extends a base template still cannot include from inside its overriding block *)
Example C15_include_in_block_of_partial_example :
  run_case (Case MStrict UDefault default_flags
              [(slit "child", [NExtends (slit "base") [(slit "b", [NInclude (slit "inc") None []])]]);
               (slit "base", [NText (slit "<"); NBlock (slit "b") []; NText (slit ">")]); (slit "inc", [NText (slit "I")])]
              [] [] [] [] [NRender (slit "child") None []]) = Err EDisabledTag.
Proof. vm_compute. reflexivity. Qed.
