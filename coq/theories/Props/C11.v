(* C11 — Custom delimiters and environments are independent.  Property theorems only.
   Part 1 (delimiters): Lex.v is parametric in the six delimiter strings; LexSpec.v gives templates and their
   concrete syntax under any delimiters.  Part 2 (environments): Memo.v models the three process-wide memo tables
   (get_lexer, get_parser, get_implicit_environment) and histories of environment creations, tag/filter
   registrations and parses. *)
From Coq Require Import String.
From LiquidVerif Require Import Prelude Lex LexSpec Lex_Proofs Lex_Match_Proofs Lex_C10_Proofs LexOcc Lex_Occ_Proofs Memo Memo_Proofs MacroArgs.
Local Open Scope string_scope. Local Open Scope list_scope.

(* Part 1.  Rewriting a template under other delimiters and rendering it with those delimiters gives the same
   output: for all delimiter sets d1, d2 and templates tp that collide with neither, where "collide" is the occurrence
   guard of LexOcc.v (no opening delimiter of the set occurs at a position inside a text, no closing pattern inside the
   body it closes; see C10_whitespace_control).  Texts may therefore contain fragments of either delimiter set.
   Templates with control flow are covered by the oracle run only. *)
Theorem C11_delimiter_equivariance : forall d1 d2 tp,
  no_collision_occ d1 tp = true -> no_collision_occ d2 tp = true ->
  render_src d1 (build d1 tp) = render_src d2 (build d2 tp).
Proof. exact delimiter_equivariance_occ. Qed.
Print Assumptions C11_delimiter_equivariance.

(* the same under the alphabet guard, a corollary *)
Theorem C11_delimiter_equivariance_partial : forall d1 d2 tp,
  no_collision d1 tp = true -> no_collision d2 tp = true ->
  render_src d1 (build d1 tp) = render_src d2 (build d2 tp).
Proof.
  intros d1 d2 tp H1 H2. apply delimiter_equivariance_occ; apply no_collision_occ_of_alphabet; assumption.
Qed.
Print Assumptions C11_delimiter_equivariance_partial.

(* ... and both equal the documented rendering, in which no delimiter occurs *)
Theorem C11_rendering_is_delimiter_free : forall d tp, no_collision_occ d tp = true ->
  render_src d (build d tp) = ROut (spec_render tp).
Proof. exact whitespace_control. Qed.
Print Assumptions C11_rendering_is_delimiter_free.

(* Part 2, the generic lemma.  A memo table all of whose entries satisfy value = f key, consulted with a key
   equality that decides equality of ALL the inputs of f, is unobservable: a memoised call returns f k (hit or
   miss, whatever was evicted) and leaves the table sound. *)
Theorem C11_memo_transparent : forall (K V : Type) (keqb : K -> K -> bool),
  (forall a b, keqb a b = true <-> a = b) ->
  forall (f : K -> V) n c k, sound f c ->
  fst (cached keqb n f c k) = f k /\ sound f (snd (cached keqb n f c k)).
Proof. exact @memo_transparent. Qed.
Print Assumptions C11_memo_transparent.

(* the keys of the three tables determine all the inputs: six delimiter strings / the environment's identity /
   every keyword argument *)
Theorem C11_lexer_key_complete : forall a b, delims_eqb a b = true <-> a = b.
Proof. exact delims_eqb_eq. Qed.
Print Assumptions C11_lexer_key_complete.

Theorem C11_implicit_key_complete : forall a b, cfg_eqb a b = true <-> a = b.
Proof. exact cfg_eqb_eq. Qed.
Print Assumptions C11_implicit_key_complete.

(* Part 2, histories.  Along every sequence of environment creations, add_tag / add_filter calls, parses through
   any environment and Template() calls, in any interleaving: every parse through environment e returns the token
   stream of e's OWN delimiters and is carried out by a parser working for e's OWN tags and filters (op_ok mentions
   the environment objects only, no memo table); Template(src, kwargs) works for an environment whose
   configuration is exactly kwargs. *)
Theorem C11_env_independence : forall ops, results_ok ps0 ops (fst (run_ops ps0 ops)).
Proof. intros. apply env_independence, inv0. Qed.
Print Assumptions C11_env_independence.

(* emptying the get_lexer and get_parser tables changes no result *)
Theorem C11_caches_unobservable : forall s e src, inv s -> fst (do_parse s e src) = fst (do_parse (forget s) e src).
Proof.
  intros s e src I.
  assert (I' : inv (forget s)) by (destruct I; constructor; simpl; auto; constructor).
  destruct (do_parse_correct s e src I) as (R & _). destruct (do_parse_correct (forget s) e src I') as (R' & _).
  rewrite R, R'. reflexivity.
Qed.
Print Assumptions C11_caches_unobservable.

(* ---- the defect of the unrepaired lexer: unclosed markup was recognised by the literal "{{" / "{%" ---- *)
Definition angle : delims :=
  {| d_ts := lit "<%"; d_te := lit "%>"; d_ss := lit "<<"; d_se := lit ">>"; d_cs := lit "<#"; d_ce := lit "#>" |}.
(* under the delimiters << >> the text "{{ x" is plain text, yet the old code raises a syntax error for it ... *)
Theorem C11_old_literal_brace_refuted :
  d_ok angle = true /\ plain angle (lit "{{ x") = true /\
  render_src_old angle (lit "{{ x") <> ROut (lit "{{ x") /\ render_src angle (lit "{{ x") = ROut (lit "{{ x").
Proof. repeat split; try (vm_compute; reflexivity). vm_compute. discriminate. Qed.
Print Assumptions C11_old_literal_brace_refuted.

(* ... while the unclosed output statement "<< x" is rendered as text by the old code and rejected (as "{{ x" is
   under the default delimiters) by the repaired one *)
Theorem C11_old_unclosed_custom_refuted :
  render_src_old angle (lit "<< x") = ROut (lit "<< x") /\ render_src angle (lit "<< x") = RErr ESyntax /\
  render_src default_delims (lit "{{ x") = RErr ESyntax.
Proof. repeat split; vm_compute; reflexivity. Qed.
Print Assumptions C11_old_unclosed_custom_refuted.

(* non-vacuity *)
Definition sample : template :=
  ([(lit " a ", MkRaw false (lit " ") (lit " ") false (lit " x ") true [] [] true);
    (lit "  ", MkOut true (lit " ") 39%N (lit "hi") [] true);
    ([], MkShort true (lit "s") false)], lit "  end").
Example C11_sample_ok : no_collision default_delims sample = true /\ no_collision angle sample = true.
Proof. split; vm_compute; reflexivity. Qed.
(* a template whose texts contain fragments of BOTH delimiter sets *)
Definition mixed : template :=
  ([(lit "{ < % ", MkOut false (lit " ") 39%N (lit "> }") [] false); (lit " %} >> #", MkShort false (lit " {{ << ") false)], lit " { <").
Example C11_mixed_ok : no_collision_occ default_delims mixed = true /\ no_collision_occ angle mixed = true
                       /\ no_collision default_delims mixed = false /\ no_collision angle mixed = false.
Proof. repeat split; vm_compute; reflexivity. Qed.
Example C11_sample_sources_differ : build default_delims sample <> build angle sample.
Proof. vm_compute. discriminate. Qed.

Definition cfgA : cfg := {| cf_delims := default_delims; cf_comments := false; cf_rest := 0 |}.
Definition cfgB : cfg := {| cf_delims := angle; cf_comments := true; cf_rest := 1 |}.
(* two environments used alternately: each parse sees its own delimiters and its own filters *)
Example C11_history_example :
  map (option_map (fun r : presult => option_map ed_filters (snd r)))
      (fst (run_ops ps0 [NewEnv cfgA [] [lit "fa"]; NewEnv cfgB [] [lit "fb"]; Parse 0 (lit "<< x >>"); Parse 1 (lit "<< x >>");
                         AddFilter 0 (lit "late"); Parse 0 (lit "{{ y }}"); Implicit cfgB [] [] (lit "<% t %>")]))
  = [None; None; Some (Some [lit "fa"]); Some (Some [lit "fb"]); None; Some (Some [lit "late"; lit "fa"]); Some (Some [])].
Proof. vm_compute. reflexivity. Qed.
