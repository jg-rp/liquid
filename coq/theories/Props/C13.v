(* C13 — Loops visit exactly the documented items.  Property theorems only.
   exec runs a LIST of bodies: a one-element list costs one unit of fuel more than its element and appends the empty output
   of the empty rest, hence S (S fuel) and out ++ [] in statements about one tag. *)
From Coq Require Import String.
From LiquidVerif Require Import Prelude PyPrims LoopSlice LoopSlice_Proofs.
Local Open Scope string_scope. Local Open Scope list_scope.

(* the visited items are those of the reference semantics, for EVERY limit and offset
   (zero, negative, huge), offset:continue and reversed *)
Theorem C13_slice_spec : forall (items : list str) stored limit offset cont rev,
  fst (fst (visit items stored limit offset cont rev)) = spec_visit items stored limit offset cont rev.
Proof.
  intros. unfold visit, spec_visit, slice_bounds. cbn [fst]. rewrite spec_each_window, Z.sub_0_r.
  destruct limit as [l|]; cbn [option_map].
  - rewrite Z.sub_0_r, zslice_clamped. reflexivity.
  - rewrite zslice_clamped_end. reflexivity.
Qed.
Print Assumptions C13_slice_spec.

(* the length given to forloop/tablerowloop is the number of items visited (so rindex/last are right) ... *)
Theorem C13_length_is_visited_count : forall (items : list str) stored limit offset cont rev,
  let '(seg, length_, _) := visit items stored limit offset cont rev in length_ = zlen seg.
Proof. exact (@length_is_visited_count str). Qed.
Print Assumptions C13_length_is_visited_count.

(* ... and it is 0 exactly when nothing is visited ... *)
Theorem C13_else_iff_empty : forall (items : list str) stored limit offset cont rev,
  let '(seg, length_, _) := visit items stored limit offset cont rev in (length_ = 0%Z <-> seg = []).
Proof.
  intros. pose proof (C13_length_is_visited_count items stored limit offset cont rev) as H.
  destruct (visit items stored limit offset cont rev) as [[seg n] st]. subst n.
  destruct seg; [split; reflexivity|split; discriminate].
Qed.
Print Assumptions C13_else_iff_empty.

(* ... in which case the for tag is its else block, run on the state the loop expression left *)
Theorem C13_for_else : forall sq dis fuel l body els fs st seg st1,
  eval_loop sq l st = Ok (seg, 0%Z, st1) ->
  exec sq dis (S (S fuel)) fs st [BFor l body els] =
  (do r <- exec sq dis (S fuel) fs st1 els;
   let '(out, st', sg) := r in
   match sg with SNormal => Ok (out ++ [], st', SNormal) | _ => Ok (out, st', sg) end).
Proof.
  intros sq dis fuel l body els fs st seg st1 He. remember (S fuel) as f1 eqn:Ef. cbn [exec]. rewrite He. cbn [bind Z.eqb].
  destruct (exec sq dis f1 fs st1 els) as [[[out st'] sg]|e|]; cbn [bind]; try reflexivity.
  destruct sg; try reflexivity. rewrite Ef. reflexivity.
Qed.
Print Assumptions C13_for_else.

(* forloop helpers of the k-th of n visited items *)
Theorem C13_forloop_helpers : forall k n,
  let h := forloop_at k n in
  h_index h = (k + 1)%Z /\ h_index0 h = k /\ h_rindex h = (n - k)%Z /\ h_rindex0 h = (n - k - 1)%Z /\
  (h_first h = true <-> k = 0%Z) /\ (h_last h = true <-> k = (n - 1)%Z) /\ h_length h = n.
Proof.
  intros k n. cbn. repeat split; intro H.
  - apply Z.eqb_eq, H.
  - subst k. reflexivity.
  - apply Z.eqb_eq, H.
  - subst k. apply Z.eqb_refl.
Qed.
Print Assumptions C13_forloop_helpers.

(* the loop prints each visited item once, in order, with those helpers *)
Theorem C13_for_prints_visited : forall sq dis fuel l els fs st seg n st1,
  eval_loop sq l st = Ok (seg, n, st1) -> n <> 0%Z ->
  exec sq dis (S (S (S (S fuel)))) fs st [BFor l [BPrint] els] = Ok (printed seg 0 (zlen seg), st1, SNormal).
Proof.
  intros sq dis fuel l els fs st seg n st1 He Hn.
  rewrite (exec_for_general sq dis _ l _ els fs st seg n st1 leaf_print no_sig He Hn) by (intros; apply exec_leaf_print).
  rewrite fcells_printed, (eval_loop_length _ _ _ _ _ _ He). reflexivity.
Qed.
Print Assumptions C13_for_prints_visited.

(* offset:continue resumes exactly where the previous loop over the key stopped *)
Theorem C13_continue_chain : forall (items : list str) stored limit1 offset1 cont1 limit2,
  let '(seg1, _, stop1) := visit items stored limit1 offset1 cont1 false in
  let '(seg2, _, stop2) := visit items stop1 limit2 None true false in
  let start1 := Z.min (Z.max (slice_start stored offset1 cont1) 0) (zlen items) in
  (start1 <= stop1)%Z -> (stop1 <= stop2)%Z -> seg1 ++ seg2 = zslice items start1 stop2.
Proof.
  intros. unfold visit, slice_bounds. cbn [slice_start].
  set (s1 := slice_start stored offset1 cont1).
  assert (Hl : (0 <= zlen items)%Z) by (unfold zlen; lia).
  set (stop1 := match limit1 with None => zlen items | Some l => Z.min (Z.max (l + s1) 0) (zlen items) end).
  assert (H1 : (0 <= stop1 <= zlen items)%Z) by (unfold stop1; destruct limit1; lia).
  set (stop2 := match limit2 with None => zlen items | Some l => Z.min (Z.max (l + stop1) 0) (zlen items) end).
  assert (H2 : (0 <= stop2 <= zlen items)%Z) by (unfold stop2; destruct limit2; lia).
  intros Ha Hb.
  replace (Z.min (Z.max stop1 0) (zlen items)) with stop1 by lia.
  apply zslice_app; lia.
Qed.
Print Assumptions C13_continue_chain.

(* tablerow: for cols = c > 0 item k is in row k/c+1, column k mod c+1, col_first / col_last accordingly *)
Theorem C13_tablerow_structure : forall c (k : nat), (0 < c)%Z ->
  let s := tr_steps c (S k) tr_init in
  tr_index s = Z.of_nat k /\ tr_row s = (Z.of_nat k / c + 1)%Z /\ tr_col s = (Z.of_nat k mod c + 1)%Z /\
  ((tr_col s =? 1)%Z = true <-> (Z.of_nat k mod c = 0)%Z) /\
  ((tr_col s =? c)%Z = true <-> (Z.of_nat k mod c = c - 1)%Z).
Proof.
  intros c k Hc. cbn zeta. destruct (tr_invariant c Hc k) as (Hi & Hcol & Hrow & Hk).
  set (s := tr_steps c (S k) tr_init) in *.
  assert (Hq : (Z.of_nat k / c = tr_row s - 1)%Z).
  { symmetry. apply (Z.div_unique_pos _ _ _ (tr_col s - 1)); [lia|]. rewrite Hk. ring. }
  assert (Hr : (Z.of_nat k mod c = tr_col s - 1)%Z).
  { symmetry. apply (Z.mod_unique_pos _ _ (tr_row s - 1)); [lia|]. rewrite Hk. ring. }
  rewrite Hq, Hr. repeat split; try lia.
Qed.
Print Assumptions C13_tablerow_structure.

(* tablerow for every cols value that is not positive (0, negative; nil, non-numeric strings and infinity count as 0):
   a single row, the k-th item in column k+1; and for cols beyond the number of items (huge values) as well *)
Theorem C13_tablerow_nonpositive_cols : forall c (k : nat), (c <= 0)%Z ->
  tr_steps c (S k) tr_init = {| tr_index := Z.of_nat k; tr_row := 1; tr_col := Z.of_nat k + 1 |}.
Proof.
  intros c k Hc. induction k as [|k IH].
  - reflexivity.
  - change (tr_steps c (S (S k)) tr_init) with (tr_step c (tr_steps c (S k) tr_init)). rewrite IH.
    unfold tr_step. cbn [tr_index tr_col tr_row].
    replace (Z.of_nat k + 1 =? 0)%Z with false by lia. replace (Z.of_nat k + 1 =? c)%Z with false by lia.
    cbn [negb andb]. rewrite Nat2Z.inj_succ. f_equal; lia.
Qed.
Print Assumptions C13_tablerow_nonpositive_cols.

Theorem C13_tablerow_wide_cols : forall c (k : nat), (Z.of_nat k < c)%Z ->
  let s := tr_steps c (S k) tr_init in tr_row s = 1%Z /\ tr_col s = (Z.of_nat k + 1)%Z.
Proof.
  intros c k H. destruct (C13_tablerow_structure c k ltac:(lia)) as (_ & Hr & Hcl & _). cbn zeta.
  rewrite Hr, Hcl. rewrite Z.div_small, Z.mod_small by lia. split; reflexivity.
Qed.
Print Assumptions C13_tablerow_wide_cols.

(* a cols value never fails: it is the integer the value denotes, 0 when it denotes none *)
Theorem C13_cols_value : forall a, int_or_zero a = Ok (match to_int_arg a with Ok z => z | _ => 0%Z end).
Proof. intro a. unfold int_or_zero, to_int_arg. destruct (to_int a); reflexivity. Qed.
Print Assumptions C13_cols_value.

(* limit/offset values of every kind: integers and integer strings by value, floats by their integer part,
   booleans as 0/1; nil, other strings, infinity and NaN are the Liquid type error; and the loop depends on the
   argument only through that integer *)
Theorem C13_arg_value : forall a,
  to_int_arg a =
  match a with
  | AInt z | AStrInt z => Ok z
  | AFloat m e => Ok (Z.quot m (10 ^ Z.of_nat e))
  | ABool b => Ok (if b then 1 else 0)%Z
  | ANil | AStrBad | AInf => Err EType
  end.
Proof. destruct a; reflexivity. Qed.
Print Assumptions C13_arg_value.

Theorem C13_limit_by_value : forall sq k nm it a a' o r st, to_int_arg a = to_int_arg a' ->
  eval_loop sq {| lkey := k; lname := nm; liter := it; llimit := Some a; loffset := o; lrev := r |} st =
  eval_loop sq {| lkey := k; lname := nm; liter := it; llimit := Some a'; loffset := o; lrev := r |} st.
Proof. intros * H. unfold eval_loop. cbn [llimit loffset liter lkey lrev]. rewrite H. reflexivity. Qed.
Print Assumptions C13_limit_by_value.

Theorem C13_offset_by_value : forall sq k nm it lim a a' r st, to_int_arg a = to_int_arg a' ->
  eval_loop sq {| lkey := k; lname := nm; liter := it; llimit := lim; loffset := OffArg a; lrev := r |} st =
  eval_loop sq {| lkey := k; lname := nm; liter := it; llimit := lim; loffset := OffArg a'; lrev := r |} st.
Proof. intros * H. unfold eval_loop. cbn [llimit loffset liter lkey lrev]. rewrite H. reflexivity. Qed.
Print Assumptions C13_offset_by_value.

(* strings as loop sources: with string_sequences the items are the characters, in order (so the slice theorems
   above apply to them); without it a string is one item, or none when empty.  Hashes: one key-value pair per entry *)
Theorem C13_string_sequence : forall s,
  iter_items true (ItStr s) = map (fun c => [c]) s /\
  length (iter_items true (ItStr s)) = length s /\ concat_str (iter_items true (ItStr s)) = s.
Proof.
  intro s. cbn [iter_items]. repeat split; [apply map_length|].
  induction s as [|c s IH]; cbn [map concat_str]; [reflexivity|]. rewrite IH. reflexivity.
Qed.
Print Assumptions C13_string_sequence.

Theorem C13_string_single : forall s, iter_items false (ItStr s) = match s with [] => [] | _ => [s] end.
Proof. reflexivity. Qed.
Print Assumptions C13_string_single.

Theorem C13_hash_pairs : forall sq l,
  iter_items sq (ItDict l) = map (fun kv => fst kv ++ [61%N] ++ Z_to_str (snd kv)) l /\
  length (iter_items sq (ItDict l)) = length l.
Proof. intros sq l. cbn [iter_items]. split; [reflexivity|apply map_length]. Qed.
Print Assumptions C13_hash_pairs.

(* every loop expression (for and tablerow evaluate the same one) visits `visit` of its source with the integer
   values of its arguments, starting at the index stored under its key when the offset is continue, and stores
   where it stopped under that key: so continue chains run across for and tablerow *)
Theorem C13_loop_expression : forall sq l st seg n st1, eval_loop sq l st = Ok (seg, n, st1) ->
  exists lim off cont,
    match llimit l with None => lim = None | Some a => to_int_arg a = Ok (match lim with Some z => z | None => 0%Z end) /\ lim <> None end /\
    match loffset l with
    | OffNone => off = None /\ cont = false
    | OffContinue => off = None /\ cont = true
    | OffArg a => cont = false /\ exists z, to_int_arg a = Ok z /\ off = Some z
    end /\
    visit (iter_items sq (liter l)) (sget (lkey l) st) lim off cont (lrev l) = (seg, n, sget (lkey l) st1) /\
    st1 = sset (lkey l) (sget (lkey l) st1) st.
Proof. exact eval_loop_spec. Qed.
Print Assumptions C13_loop_expression.

(* parentloop: forloop.parentloop^up.h is the helper (index, length, name, ...) of the up-th enclosing FOR loop;
   a tablerow in between is not on the loop stack; nothing is printed when there is no such loop *)
Theorem C13_parentloop : forall sq dis fuel fs st up h,
  exec sq dis (S (S fuel)) fs st [BHelper up h] =
  Ok (match nth_error (for_frames fs) up with Some f => helper_text f h | None => [] end, st, SNormal).
Proof. intros. cbn [exec exec_leaf bind]. rewrite app_nil_r. reflexivity. Qed.
Print Assumptions C13_parentloop.

Theorem C13_loop_stack : forall f fs,
  (f_kind f = KFor -> for_frames (f :: fs) = f :: for_frames fs) /\
  (f_kind f = KTable -> for_frames (f :: fs) = for_frames fs).
Proof. intros f fs. split; [exact (for_frames_for f fs)|exact (for_frames_table f fs)]. Qed.
Print Assumptions C13_loop_stack.

(* include shares the loop stack (parentloop), the continue positions and break/continue with its caller *)
Theorem C13_include_shares_scope : forall sq fuel fs st b,
  exec sq false (S (S fuel)) fs st [BInclude b] =
  (do r <- exec sq false (S fuel) fs st b;
   let '(out, st', sg) := r in
   match sg with SNormal => Ok (out ++ [], st', SNormal) | _ => Ok (out, st', sg) end).
Proof. intros. cbn [exec]. reflexivity. Qed.
Print Assumptions C13_include_shares_scope.

(* render starts from an empty loop stack and no continue positions whatever the caller's are, and leaves the
   caller's untouched *)
Theorem C13_render_is_isolated : forall sq dis dis' fuel fs fs' st st' b out st1 sg,
  exec sq dis (S (S fuel)) fs st [BRender b] = Ok (out, st1, sg) ->
  exec sq dis' (S (S fuel)) fs' st' [BRender b] = Ok (out, st', sg) /\ st1 = st.
Proof.
  intros sq dis dis' fuel fs fs' st st' b out st1 sg.
  rewrite !render_is_isolated. destruct (exec sq true (S fuel) [] [] b) as [[[o s'] g]|e|]; try discriminate.
  destruct g; try discriminate. intro H. injection H as <- <- <-. split; reflexivity.
Qed.
Print Assumptions C13_render_is_isolated.

(* break after the j-th item of a for loop: exactly the first j visited items are written, with the helper values
   (length, rindex, last) of the whole loop; continue: every item keeps its own helper values *)
Theorem C13_for_break : forall sq dis fuel l els fs st seg n st1 j,
  eval_loop sq l st = Ok (seg, n, st1) -> n <> 0%Z -> (1 <= j)%Z ->
  exec sq dis (S (S (S (S (S fuel))))) fs st [BFor l [BPrint; BBreakAt j] els] =
  Ok (printed (firstn (Z.to_nat j) seg) 0 n, st1, SNormal).
Proof.
  intros sq dis fuel l els fs st seg n st1 j He Hn Hj.
  rewrite (exec_for_general sq dis _ l _ els fs st seg n st1 leaf_print (break_at j) He Hn)
    by (intros; apply exec_print_break).
  rewrite fcells_break_prefix by lia. rewrite Z.sub_0_r, fcells_printed. reflexivity.
Qed.
Print Assumptions C13_for_break.

Theorem C13_for_continue : forall sq dis fuel l els fs st seg n st1 j,
  eval_loop sq l st = Ok (seg, n, st1) -> n <> 0%Z ->
  exec sq dis (S (S (S (S (S fuel))))) fs st [BFor l [BContinueAt j; BPrint] els] =
  Ok (fcells (print_unless j) no_sig (lname l) seg 0 n, st1, SNormal).
Proof.
  intros sq dis fuel l els fs st seg n st1 j He Hn.
  rewrite (exec_for_general sq dis _ l _ els fs st seg n st1 (print_unless j) (continue_at j) He Hn)
    by (intros; apply exec_continue_print).
  rewrite fcells_continue. reflexivity.
Qed.
Print Assumptions C13_for_continue.

(* tablerow output: one opened and closed cell per visited item, in the column the row/column theorems give, a row
   break after a last column unless the item is the last; break after item j completes and closes that cell (and
   writes its row break) and then ends the loop and the table; continue keeps every cell *)
Theorem C13_tablerow_prints : forall sq dis fuel l cols fs st seg n st1 ncols,
  eval_loop sq l st = Ok (seg, n, st1) ->
  match cols with None => Ok n | Some a => int_or_zero a end = Ok ncols ->
  exec sq dis (S (S (S (S fuel)))) fs st [BTablerow l cols [BPrint]] =
  Ok (table_head ++ tcells leaf_print no_sig seg 0 tr_init n ncols ++ table_foot, st1, SNormal).
Proof.
  intros sq dis fuel l cols fs st seg n st1 ncols He Hc.
  apply (exec_table_general sq dis _ l cols _ fs st seg n st1 ncols leaf_print no_sig He Hc).
  intros. apply exec_leaf_print.
Qed.
Print Assumptions C13_tablerow_prints.

Theorem C13_tablerow_break : forall sq dis fuel l cols fs st seg n st1 ncols j,
  eval_loop sq l st = Ok (seg, n, st1) ->
  match cols with None => Ok n | Some a => int_or_zero a end = Ok ncols -> (1 <= j)%Z ->
  exec sq dis (S (S (S (S (S fuel))))) fs st [BTablerow l cols [BPrint; BBreakAt j]] =
  Ok (table_head ++ tcells leaf_print no_sig (firstn (Z.to_nat j) seg) 0 tr_init n ncols ++ table_foot, st1, SNormal).
Proof.
  intros sq dis fuel l cols fs st seg n st1 ncols j He Hc Hj.
  rewrite (exec_table_general sq dis _ l cols _ fs st seg n st1 ncols leaf_print (break_at j) He Hc)
    by (intros; apply exec_print_break).
  rewrite tcells_break_prefix by lia. rewrite Z.sub_0_r. reflexivity.
Qed.
Print Assumptions C13_tablerow_break.

Theorem C13_tablerow_continue : forall sq dis fuel l cols fs st seg n st1 ncols j,
  eval_loop sq l st = Ok (seg, n, st1) ->
  match cols with None => Ok n | Some a => int_or_zero a end = Ok ncols ->
  exec sq dis (S (S (S (S (S fuel))))) fs st [BTablerow l cols [BContinueAt j; BPrint]] =
  Ok (table_head ++ tcells (print_unless j) no_sig seg 0 tr_init n ncols ++ table_foot, st1, SNormal).
Proof.
  intros sq dis fuel l cols fs st seg n st1 ncols j He Hc.
  rewrite (exec_table_general sq dis _ l cols _ fs st seg n st1 ncols (print_unless j) (continue_at j) He Hc)
    by (intros; apply exec_continue_print).
  rewrite tcells_continue. reflexivity.
Qed.
Print Assumptions C13_tablerow_continue.

(* the arithmetic the code used before the fix (`stop or length`, unclamped) violates the reference:
   limit 0 visits everything, a negative limit raises ValueError. Kept as the witnesses. *)
Theorem C13_old_slice_refuted :
  (exists items : list Z, visit_old items 0 (Some 0%Z) None false false = Ok (items, zlen items, zlen items)
                          /\ spec_visit items 0 (Some 0%Z) None false false = [] /\ items <> []) /\
  (exists items : list Z, visit_old items 0 (Some (-1)%Z) None false false = Err EValueError).
Proof.
  split; [exists [1; 2; 3]%Z | exists [1; 2; 3]%Z]; vm_compute; repeat split; discriminate.
Qed.
Print Assumptions C13_old_slice_refuted.

(* before the repairs: cols 0 put the first (and every) item in row 2 of a table that has one row; a nil cols
   raised TypeError *)
Theorem C13_old_tablerow_refuted :
  tr_row (tr_steps_old 0 1 tr_init) = 2%Z /\ tr_row (tr_steps 0 1 tr_init) = 1%Z /\
  int_or_zero_old ANil = Err ETypeError /\ int_or_zero ANil = Ok 0%Z.
Proof. vm_compute. repeat split. Qed.
Print Assumptions C13_old_tablerow_refuted.

(* non-vacuity: a concrete continue chain satisfying the hypotheses of C13_continue_chain *)
Example C13_chain_nonvacuous :
  let items := [lit "a"; lit "b"; lit "c"; lit "d"; lit "e"] in
  fst (fst (visit items 0 (Some 2%Z) None false false)) = [lit "a"; lit "b"] /\
  fst (fst (visit items 2 (Some 2%Z) None true false)) = [lit "c"; lit "d"].
Proof. vm_compute. split; reflexivity. Qed.

(* non-vacuity of the loop-expression, parentloop and string theorems: a mixed chain (for, tablerow, for over one key), parentloop through include and
   render, a string looped over as a sequence *)
Example C13_mixed_chain_nonvacuous :
  let lp := fun lim off => {| lkey := 0; lname := lit "x0-a"; liter := ItList [1; 2; 3; 4]%Z; llimit := lim; loffset := off; lrev := false |} in
  run_template {| t_strseq := false; t_body :=
    [BFor (lp (Some (AInt 1)) OffNone) [BText (lit "f")] []; BTablerow (lp (Some (AFloat 19 1)) OffContinue) (Some ANil) [BText (lit "t")];
     BFor (lp None OffContinue) [BHelper 0 HIndex; BHelper 0 HName] []] |} =
  OOut (lit "f" ++ table_head ++ td_open 1 ++ lit "t" ++ td_close ++ table_foot ++ lit "1x0-a2x0-a").
Proof. vm_compute. reflexivity. Qed.

Example C13_parentloop_nonvacuous :
  let lp := fun nm => {| lkey := 0; lname := nm; liter := ItList [7; 8]%Z; llimit := None; loffset := OffNone; lrev := false |} in
  run_template {| t_strseq := false; t_body :=
    [BFor (lp (lit "x0-a")) [BInclude [BFor (lp (lit "x1-a")) [BHelper 1 HIndex] []]; BRender [BFor (lp (lit "x1-a")) [BHelper 1 HIndex; BText (lit ".")] []]] []] |} =
  OOut (lit "11..22..").
Proof. vm_compute. reflexivity. Qed.

Example C13_string_nonvacuous :
  fst (fst (visit (iter_items true (ItStr (lit "abcd"))) 0 (Some 2%Z) (Some 1%Z) false true)) = [lit "c"; lit "b"] /\
  fst (fst (visit (iter_items false (ItStr (lit "abcd"))) 0 (Some 2%Z) None false true)) = [lit "abcd"].
Proof. vm_compute. split; reflexivity. Qed.
