(* C26 — Null translations leave message text intact.  Property theorems only. *)
From Coq Require Import String.
From LiquidVerif Require Import Prelude PyPrims Translate Translate_Proofs.
Local Open Scope string_scope. Local Open Scope list_scope.

(* filters: a message without %(name)s placeholders is output unchanged, whatever percent signs
   (%, %%, %s, "%(", ...) it contains *)
Theorem C26_filter_text_intact : forall lk text, find_vars text = [] -> format_filter text lk = text.
Proof. intros lk text. apply fmt_no_placeholder. Qed.
Print Assumptions C26_filter_text_intact.

(* filters: in a message made of text pieces (each free of placeholders, arbitrary otherwise, not ending in '%')
   and placeholders, exactly the placeholders are replaced by their variables *)
Theorem C26_filter_placeholders : forall lk ps, wf_pieces ps -> format_filter (ser ps) lk = render lk ps.
Proof.
  intro lk. unfold format_filter. induction ps as [|[t|n] r IH]; intro Hwf; [reflexivity| |].
  - destruct Hwf as (Hne & Hclean & Hlast & Hnext & Hwf). cbn [ser render].
    rewrite (scan_text lk t false (ser r) Hclean (ser_pct_or_end r Hnext)).
    f_equal. destruct t as [|c t]; [contradiction|]. unfold endpct. rewrite Hlast. apply IH, Hwf.
  - destruct Hwf as (Hn & Hwf). cbn [ser render].
    rewrite (fmt_placeholder lk n _ _ (parse_ph_placeholder n (ser r) Hn)). f_equal.
    rewrite ph_split, <- ph_len. rewrite fmt_skip by discriminate. apply IH, Hwf.
Qed.
Print Assumptions C26_filter_placeholders.

(* tag: for EVERY block of text characters and variables, doubling the percent signs, collecting the variables
   with the repaired pattern and printf-formatting gives back the text with the variables substituted *)
Theorem C26_tag_message_intact : forall lk items, names_ok items ->
  format_tag_msg (serialize items) lk = Ok (render_items items lk).
Proof. exact tag_message_intact. Qed.
Print Assumptions C26_tag_message_intact.

(* tag, whole pipeline (validate, double percent signs, strip, re.sub of \s*\n\s*, gettext, collect variables, printf)
   for EVERY block of characters -- whitespace of every ASCII kind included -- and variables: the output is the
   normal form of the block's decomposition into words and whitespace gaps (lead and trail dropped, a gap with a
   newline -> one space, any other gap unchanged, words unchanged) with the variables substituted; a variable whose
   name is not [\w?-]+ is the syntax error *)
Theorem C26_tag_normalised : forall lk items,
  format_tag items lk =
  if names_valid items then Ok (render_items (norm_block (decompose items)) lk) else Err ESyntax.
Proof. exact tag_normalised. Qed.
Print Assumptions C26_tag_normalised.

(* the same, stated for a block GIVEN by any well-formed decomposition (so the rule does not depend on how
   decompose computes it), and: every block has one *)
Theorem C26_tag_normalised_block : forall lk b, wf_block b = true ->
  format_tag (flatten b) lk = if names_valid (flatten b) then Ok (render_items (norm_block b) lk) else Err ESyntax.
Proof. exact tag_normalised_block. Qed.
Print Assumptions C26_tag_normalised_block.

Theorem C26_every_block_decomposes : forall items, wf_block (decompose items) = true /\ flatten (decompose items) = items.
Proof. exact decompose_ok. Qed.
Print Assumptions C26_every_block_decomposes.

(* what the normal form is: the non-whitespace items are the block's, in order (nothing else changes); no newline is
   left outside variable values; it neither starts nor ends with whitespace *)
Theorem C26_normal_form_keeps_text : forall b, wf_block b = true ->
  filter nonspace (norm_block b) = filter nonspace (flatten b).
Proof.
  intros [ws|lead w1 rest trail] Hwf.
  - cbn [norm_block flatten wf_block] in *. rewrite (filter_all_space ws Hwf). reflexivity.
  - destruct (wf_words_inv _ _ _ _ Hwf) as (Hl & _ & Hr & Ht). cbn [norm_block flatten].
    rewrite !filter_app, (filter_all_space lead Hl), (filter_all_space trail Ht), app_nil_r. cbn [app]. f_equal.
    clear Hwf. induction rest as [|[g w] rest IH]; [reflexivity|].
    destruct (rest_ok_cons g w rest Hr) as (Hg & _ & Hr'). destruct (is_gap_inv g Hg) as [_ Hgs].
    cbn [norm_rest flat_rest]. rewrite !filter_app, (filter_all_space g Hgs), (filter_all_space _ (gap_out_space g Hgs)).
    cbn [app]. f_equal. apply IH, Hr'.
Qed.
Print Assumptions C26_normal_form_keeps_text.

Theorem C26_normal_form_no_newline : forall b, wf_block b = true ->
  forallb (fun i => negb (item_nl i)) (norm_block b) = true.
Proof.
  assert (Hword : forall w, forallb (fun i => negb (item_space i)) w = true -> forallb (fun i => negb (item_nl i)) w = true).
  { intro w. apply forallb_impl. intros [c|n] Hc; [|reflexivity]. cbn [item_space item_nl] in *.
    apply negb_true_iff in Hc. destruct (c =? 10)%N eqn:E; [|reflexivity].
    rewrite (nl_is_space c E) in Hc. discriminate. }
  assert (Hgap : forall g, forallb (fun i => negb (item_nl i)) (gap_out g) = true).
  { intro g. unfold gap_out. destruct (existsb item_nl g) eqn:E; [reflexivity|].
    induction g as [|i g IH]; [reflexivity|]. cbn [existsb] in E. apply orb_false_iff in E. destruct E as [Ei Eg].
    cbn [forallb]. rewrite Ei, (IH Eg). reflexivity. }
  intros [ws|lead w1 rest trail] Hwf; [reflexivity|].
  destruct (wf_words_inv _ _ _ _ Hwf) as (_ & Hw1 & Hr & _). cbn [norm_block].
  rewrite forallb_app. destruct (is_word_run_inv w1 Hw1) as [_ H1]. rewrite (Hword w1 H1). cbn [andb].
  clear Hwf. induction rest as [|[g w] rest IH]; [reflexivity|].
  destruct (rest_ok_cons g w rest Hr) as (_ & Hw & Hr'). destruct (is_word_run_inv w Hw) as [_ H2].
  cbn [norm_rest]. rewrite !forallb_app, Hgap, (Hword w H2), (IH Hr'). reflexivity.
Qed.
Print Assumptions C26_normal_form_no_newline.

Theorem C26_normal_form_stripped : forall b, wf_block b = true ->
  ihead_ns (norm_block b) /\ ihead_ns (rev (norm_block b)).
Proof.
  intros [ws|lead w1 rest trail] Hwf; [split; exact I|].
  destruct (wf_words_inv _ _ _ _ Hwf) as (_ & Hw1 & Hr & _). cbn [norm_block]. split.
  - destruct (is_word_run_inv w1 Hw1) as [Hne Hns]. exact (head_not_app item_space w1 _ Hne Hns).
  - clear Hwf. revert w1 Hw1. induction rest as [|[g w] rest IH]; intros w1 Hw1; cbn [norm_rest].
    + destruct (is_word_run_inv w1 Hw1) as [Hne Hns]. rewrite app_nil_r. exact (last_not_forallb item_space w1 Hne Hns).
    + destruct (rest_ok_cons g w rest Hr) as (_ & Hw & Hr'). destruct (is_word_run_inv w Hw) as [Hne _].
      rewrite app_assoc. apply (last_not_app item_space); [|exact (IH Hr' w Hw)].
      intro E. apply app_eq_nil in E. exact (Hne (proj1 E)).
Qed.
Print Assumptions C26_normal_form_stripped.

(* special case: a block without whitespace is left exactly as it is *)
Theorem C26_tag_text_intact : forall lk items, names_ok items ->
  forallb (fun c => negb (is_space c)) (serialize items) = true ->
  format_tag items lk = Ok (render_items items lk).
Proof.
  intros lk items Hok Hns. unfold format_tag. rewrite (names_ok_valid items Hok), (normalise_id _ Hns).
  apply tag_message_intact, Hok.
Qed.
Print Assumptions C26_tag_text_intact.

(* plural form by count, exactly as gettext.NullTranslations (n == 1 ? singular : plural), zero and negatives included *)
Theorem C26_plural_rule : forall z,
  t_form true (CInt z) = Ok (null_ngettext z) /\ t_form false (CInt z) = Ok Singular /\
  tag_form true (CInt z) = Ok (null_ngettext z) /\ tag_form false (CInt z) = Ok Singular /\
  ng_form (CInt z) = Ok (null_ngettext z).
Proof. intro z. repeat split. Qed.
Print Assumptions C26_plural_rule.

(* counts of every kind (nil, booleans, integers, floats, infinity, NaN, any string, arrays, hashes), per entry point:
   the tag uses the count's integer value (booleans 0/1, floats truncated, integer strings) and 1 when it has none;
   ngettext/npgettext the same but the Liquid type error for an absent count/nil/arrays/hashes; t treats an absent count, nil and booleans as no count *)
Theorem C26_tag_count : forall hp c,
  tag_form hp c = Ok (if hp then null_ngettext (dflt 1 (count_int c)) else Singular).
Proof.
  intros hp c. destruct c; try reflexivity. unfold tag_form, tag_count, to_int, count_int. destruct (py_int s); reflexivity.
Qed.
Print Assumptions C26_tag_count.

Theorem C26_ngettext_count : forall c,
  ng_form c = if count_no_type c then Err EType else Ok (null_ngettext (dflt 1 (count_int c))).
Proof.
  intro c. destruct c; try reflexivity. unfold ng_form, ng_count, to_int, count_int, count_no_type. destruct (py_int s); reflexivity.
Qed.
Print Assumptions C26_ngettext_count.

Theorem C26_t_count : forall hp c,
  t_form hp c =
  match c with
  | CAbsent | CNil | CBool _ => Ok Singular
  | CArr | CHash => Err EType
  | _ => Ok (match hp, count_int c with true, Some n => null_ngettext n | _, _ => Singular end)
  end.
Proof.
  intros hp c. destruct c; try reflexivity; try (destruct hp; reflexivity).
  unfold t_form, t_count, to_int, count_int. destruct (py_int s); destruct hp; reflexivity.
Qed.
Print Assumptions C26_t_count.

Theorem C26_count_errors_are_liquid : forall hp c,
  (forall e, t_form hp c = Err e -> is_liquid e = true) /\
  (forall e, ng_form c = Err e -> is_liquid e = true) /\
  (forall e, tag_form hp c = Err e -> is_liquid e = true).
Proof.
  intros hp c. rewrite C26_t_count, C26_ngettext_count, C26_tag_count. repeat split; intros e H.
  - destruct c; inversion H; reflexivity.
  - destruct (count_no_type c); inversion H; reflexivity.
  - inversion H.
Qed.
Print Assumptions C26_count_errors_are_liquid.

(* a count string: optional whitespace around an optional sign and decimal digits denotes that integer *)
Theorem C26_count_string : forall lead trail sg ds, forallb is_space lead = true -> forallb is_space trail = true ->
  ds <> [] -> forallb is_digit ds = true ->
  py_int (lead ++ (sign_str sg ++ ds) ++ trail) = Some (sign_val sg (dval ds)).
Proof.
  intros lead trail sg ds Hl Ht Hne Hd. unfold py_int.
  assert (Hns : forallb nsp (sign_str sg ++ ds) = true).
  { rewrite forallb_app, (digit_nsp ds Hd), andb_true_r. destruct sg; reflexivity. }
  assert (Hne' : sign_str sg ++ ds <> []) by (destruct sg; [exact Hne|discriminate|discriminate]).
  rewrite strip_core; [|exact Hl|exact Ht| |apply (last_not_forallb is_space); assumption].
  - destruct sg; cbn [sign_str app sign_val].
    + destruct ds as [|c ds]; [contradiction|].
      assert (Hc : is_digit c = true) by (cbn in Hd; apply andb_true_iff in Hd; tauto).
      destruct (digit_not_sign c Hc) as [-> ->].
      apply digits_us_plain; [exact Hd|left; discriminate].
    + cbn [N.eqb Pos.eqb]. apply digits_us_plain; [exact Hd|left; exact Hne].
    + cbn [N.eqb Pos.eqb]. rewrite (digits_us_plain ds 0 false Hd (or_introl Hne)). reflexivity.
  - rewrite <- (app_nil_r (sign_str sg ++ ds)). apply (head_not_app is_space); assumption.
Qed.
Print Assumptions C26_count_string.

(* message context (translate tag's context: argument, the t filter's positional argument, pgettext/npgettext):
   with null translations it never changes the text -- for every entry point, count and context the form is the one
   the count alone selects; it only decides which gettext function is asked, and how *)
Theorem C26_context_leaves_text : forall c,
  run_plural c =
  match pc_entry c with
  | ETag => tag_form (pc_plural c) (pc_count c)
  | ETFilter => t_form (pc_plural c) (pc_count c)
  | EGettext | EPgettext => Ok Singular
  | ENgettext | ENpgettext => ng_form (pc_count c)
  end.
Proof.
  intros [e hp cnt x]. unfold run_plural, run_call. cbn [pc_entry pc_plural pc_count pc_ctx].
  destruct e; try reflexivity.
  - unfold tag_call, tag_form. destruct (tag_count cnt); cbn; [|reflexivity|reflexivity].
    destruct hp, (tag_ctx x); reflexivity.
  - unfold t_call, t_form. destruct (t_count cnt) as [[n|]| |]; cbn; try reflexivity; destruct hp, (t_ctx x); reflexivity.
  - unfold ngettext_call, ng_form. destruct (ng_count cnt); reflexivity.
  - unfold npgettext_call, ng_form. destruct (ng_count cnt); reflexivity.
Qed.
Print Assumptions C26_context_leaves_text.

Theorem C26_tag_call : forall hp c x,
  tag_call hp c x =
  do n <- tag_count c;
  Ok (match tag_ctx x with
      | Some k => if hp then GNpget k n else GPget k
      | None => if hp then GNget n else GGet
      end).
Proof. intros hp c x. unfold tag_call. destruct (tag_count c); cbn; try reflexivity. destruct hp, (tag_ctx x); reflexivity. Qed.
Print Assumptions C26_tag_call.

(* the code before the fixes, refuted by witnesses: printf over the whole message collapses %% (and garbles a lone %),
   the tag's old variable pattern misses a variable right after a percent sign (KeyError), count 0 picked the singular;
   a hyphenated variable was a KeyError and a quoted name ending in ")s" was cut short; an infinite count escaped from
   the t filter as OverflowError *)
Theorem C26_old_refuted :
  printf 0 (lit "%%") (fun _ => None) = Ok (lit "%") /\
  format_tag_msg_old (serialize [IChar 37%N; IVar (lit "n")]) (fun _ => lit "N") = Err EKeyError /\
  t_form_old true (CInt 0) = Ok Singular /\ tag_form_old true (CInt 0) = Ok Singular /\ null_ngettext 0 = Plural /\
  format_tag_names_old [IVar (lit "a-b")] (fun _ => lit "V") = Err EKeyError /\
  format_tag [IVar (lit "a-b")] (fun _ => lit "V") = Ok (lit "V") /\
  format_tag_names_old [IVar (lit "a)s")] (fun k => if str_eqb k (lit "a") then [] else lit "V") = Ok (lit ")s") /\
  t_count_inf_old CInf = Err EOverflowError /\ t_count CInf = Ok None.
Proof. vm_compute. repeat split. Qed.
Print Assumptions C26_old_refuted.

(* non-vacuity: concrete messages that meet the hypotheses *)
Example C26_pieces_nonvacuous :
  wf_pieces [PText (lit "100% sure, "); PVar (lit "you"); PText (lit " (%s)")] /\
  format_filter (lit "100% sure, %(you)s (%s)") (fun _ => lit "Sue") = lit "100% sure, Sue (%s)".
Proof. split; [|vm_compute; reflexivity]. vm_compute. repeat split; discriminate. Qed.

Example C26_tag_nonvacuous :
  format_tag [IChar 49%N; IChar 37%N; IVar (lit "n"); IChar 37%N; IChar 40%N] (fun _ => lit "N") = Ok (lit "1%N%(").
Proof. vm_compute. reflexivity. Qed.

(* "  Hello,\n   {{ you-all }}!  \t100%  " *)
Example C26_whitespace_nonvacuous :
  let items := map IChar (lit "  Hello,") ++ [IChar 10%N] ++ map IChar (lit "   ") ++ [IVar (lit "you-all")] ++
               map IChar (lit "!  ") ++ [IChar 9%N] ++ map IChar (lit "100%  ") in
  format_tag items (fun _ => lit "Sue  and Al") = Ok (lit "Hello, Sue  and Al!  " ++ [9%N] ++ lit "100%") /\
  wf_block (decompose items) = true /\
  (exists lead w1 rest trail, decompose items = BWords lead w1 rest trail /\ length rest = 2).
Proof. vm_compute. repeat split. do 4 eexists. split; reflexivity. Qed.

Example C26_count_string_nonvacuous :
  py_int (lit " -1_0 ") = Some (-10)%Z /\ py_int (lit "1__0") = None /\ py_int (lit "1.0") = None /\ py_int (lit "+ 1") = None /\
  tag_form true (CStr (lit "1.0")) = Ok Singular /\ tag_form true (CFloat 5 1) = Ok Plural /\ tag_form true (CFloat 15 1) = Ok Singular.
Proof. vm_compute. repeat split. Qed.
