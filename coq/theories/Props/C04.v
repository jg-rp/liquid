(* C04 — Serialising a template back to source preserves its meaning.  Property theorems only. *)
From Coq Require Import String.
From LiquidVerif Require Import Prelude PyPrims Cond CondPrint Cond_Proofs CondParen CondParen_Proofs StrLit StrLit_Proofs TagTree TagTree_Proofs PathSyntax PathSyntax_Proofs ExprSyntax ExprSyntax_Proofs ExprSyntax_Tags_Proofs TemplateFull TemplateFull_Proofs.
Local Open Scope string_scope. Local Open Scope list_scope.

(* for EVERY condition tree (any depth, any mix of and / or / not, comparisons, membership tests and groups) the text that
   BooleanExpression.__str__ produces parses back to the same tree *)
Theorem C04_condition_roundtrip : forall e, parse flags_on (print2 e) = Ok e.
Proof. exact print2_roundtrip. Qed.
Print Assumptions C04_condition_roundtrip.

(* ... hence the re-parsed condition has the same value on every data, and serialising it again gives the same text *)
Theorem C04_condition_same_meaning : forall e, exists e',
  parse flags_on (print2 e) = Ok e' /\ (forall env, eval env e' = eval env e) /\ print2 e' = print2 e.
Proof. intro e. exists e. rewrite print2_roundtrip. repeat split. Qed.
Print Assumptions C04_condition_same_meaning.

Theorem C04_condition_idempotent : forall c, run_reprint2 c = run_print2 c.
Proof.
  intro c. unfold run_reprint2, run_print2. destruct (parse flags_on (pc_toks c)) as [e| |]; try reflexivity.
  rewrite print2_roundtrip. reflexivity.
Qed.
Print Assumptions C04_condition_idempotent.

(* the general fact behind it: any condition text that has parentheses wherever grouping needs them (and any number of
   redundant ones) parses to the tree it denotes *)
Theorem C04_wellgrouped_text_parses : forall q, wg q = true -> parse flags_on (toks q) = Ok (erase q).
Proof. exact parse_wellgrouped. Qed.
Print Assumptions C04_wellgrouped_text_parses.

(* string literals: every value a literal can have (it cannot contain both kinds of quote) is written as a literal that
   the expression lexer reads back as exactly that value, whatever follows it *)
Theorem C04_string_literal_roundtrip : forall s rest,
  has SQ s && has DQ s = false -> scan_string (quote_string s ++ rest) = Some (s, rest).
Proof. exact quote_scan. Qed.
Print Assumptions C04_string_literal_roundtrip.

(* paths: for every path (names of any spelling, integer indexes, nested paths to any depth) the tokens Path.__str__ writes are
   read back by Path.parse (strict mode) as the same path, whatever non-path token follows; RE_PROPERTY is a parameter *)
Theorem C04_path_roundtrip : forall is_prop p rest, p <> [] -> wfl p = true -> rest_ok rest ->
  parse_path (S (length (print_path is_prop p ++ rest))) [] (print_path is_prop p ++ rest) = Ok (p, rest).
Proof. exact path_roundtrip. Qed.
Print Assumptions C04_path_roundtrip.

(* Path.__str__ before the fix (print_path_old): the well-formed path [x] is written x and read back as the name x *)
Theorem C04_old_path_refuted : let p := [SNested [SName [120%N]]] in
  parse_path 5 [] (print_path_old std_is_prop p) = Ok ([SName [120%N]], []) /\ wfl p = true.
Proof. vm_compute. split; reflexivity. Qed.
Print Assumptions C04_old_path_refuted.

(* structure: for every tree of text, output statements, raw and comment blocks, inline tags and block tags with their
   sections (nested to any depth) that is well formed for a coherent tag register, parsing the serialisation gives the tree back *)
Theorem C04_structure_roundtrip : forall kind_of, reg_ok kind_of ->
  forall ns, wf_nodes kind_of ns = true -> parse_template kind_of (print_nodes ns) = Ok ns.
Proof. exact parse_print_template. Qed.
Print Assumptions C04_structure_roundtrip.

(* ... in particular for the standard tags (if/elsif/else, unless, case/when/else, for/else, tablerow, capture, ifchanged and the inline tags) *)
Theorem C04_standard_tags_roundtrip : forall ns,
  wf_nodes std_kind ns = true -> parse_template std_kind (print_nodes ns) = Ok ns.
Proof. exact std_parse_print. Qed.
Print Assumptions C04_standard_tags_roundtrip.

(* the serialiser as it was before the repairs, refuted by witness (each replayed on the implementation by the check's corpus) *)
Theorem C04_old_condition_refuted :
  let e := BOr (BAnd (BVar (lit "a")) (BVar (lit "b"))) (BVar (lit "c")) in
  let env := [(lit "a", VBool false); (lit "b", VBool false); (lit "c", VBool true)] in
  exists e', parse flags_on (print_old e) = Ok e' /\ e' <> e /\ eval_cond env e' <> eval_cond env e.
Proof.
  eexists. split; [vm_compute; reflexivity|]. split; [discriminate|]. vm_compute. discriminate.
Qed.
Print Assumptions C04_old_condition_refuted.

Theorem C04_old_string_literal_refuted : let s := [97; 92; 98]%N in
  scan_string (repr_old s) = Some ([97; 92; 92; 98]%N, []) /\ has SQ s && has DQ s = false.
Proof. vm_compute. split; reflexivity. Qed.
Print Assumptions C04_old_string_literal_refuted.

(* ---------------- expressions inside tags and output statements (ExprSyntax.v; token level) ----------------
   A payload is the expression of an output statement / echo (filtered expression or ternary), of assign, for / tablerow
   (loop expression), case, when, cycle, include, render, or the identifier of capture / increment / decrement. *)

(* for EVERY well-formed payload -- any number of filters and of positional / keyword arguments, ranges and bracketed / nested paths to
   any depth, any condition tree in a ternary, any combination of limit / offset / cols / reversed, any when-list, cycle with or without
   group, include / render with bound variable, alias and arguments -- the parser reads back from the tokens str() writes exactly the
   tree that was serialised; is_property is the implementation's (RE_PROPERTY and not a keyword) *)
Theorem C04_expression_roundtrip : forall y, wf_payload y = true -> parse_payload (kind_of y) (print_payload expr_is_prop y) = Ok y.
Proof. apply payload_roundtrip, expr_is_prop_not_kw. Qed.
Print Assumptions C04_expression_roundtrip.

(* ... the same for ANY test of what may be written in dotted form, provided it never accepts a keyword *)
Theorem C04_expression_roundtrip_any_property_test : forall is_prop, (forall s, is_prop s = true -> is_kw s = false) ->
  forall y, wf_payload y = true -> parse_payload (kind_of y) (print_payload is_prop y) = Ok y.
Proof. exact payload_roundtrip. Qed.
Print Assumptions C04_expression_roundtrip_any_property_test.

(* hence the re-parsed payload is the original tree (so it has the same value on every data) and serialises to the same tokens again *)
Theorem C04_expression_same_meaning : forall y, wf_payload y = true ->
  exists y', parse_payload (kind_of y) (print_payload expr_is_prop y) = Ok y' /\ y' = y /\ print_payload expr_is_prop y' = print_payload expr_is_prop y.
Proof. intros y H. exists y. rewrite (C04_expression_roundtrip y H). repeat split. Qed.
Print Assumptions C04_expression_same_meaning.

(* from SOURCE tokens: if the parser accepts them and the tree is well formed, then parsing str() again and serialising once more
   gives the same tokens as str() (that parsed trees without nil ARE well formed is evaluated on every generated source: run_xwf) *)
Theorem C04_expression_idempotent : forall c y, parse_payload (xc_kind c) (xc_toks c) = Ok y -> wf_payload y = true -> run_xreprint c = run_xprint c.
Proof.
  intros c y Hp Hwf. unfold run_xreprint, run_xprint. rewrite Hp.
  destruct (parse_kind _ _ _ Hp) as [Hk|[Hk [s ->]]].
  - rewrite <- Hk. rewrite (C04_expression_roundtrip y Hwf). reflexivity.
  - rewrite Hk. rewrite (capture_roundtrip expr_is_prop expr_is_prop_not_kw s). reflexivity.
Qed.
Print Assumptions C04_expression_idempotent.

(* the layers the payload theorem is built from: a primitive (literal, path, range) followed by any separator or keyword ... *)
Theorem C04_primitive_roundtrip : forall p rest, wf_prim p = true -> follow_ok rest -> pprim (print_prim expr_is_prop p ++ rest) = Ok (p, rest).
Proof. exact (pprim_roundtrip expr_is_prop expr_is_prop_not_kw). Qed.
Print Assumptions C04_primitive_roundtrip.

(* ... and filtered expressions and ternaries (FilteredExpression.parse / TernaryFilteredExpression.parse, the condition through Cond.pp) *)
Theorem C04_filtered_expression_roundtrip : forall e, wf_expr e = true -> parse_expr true (print_expr expr_is_prop e) = Ok e.
Proof. exact (expr_roundtrip expr_is_prop expr_is_prop_not_kw). Qed.
Print Assumptions C04_filtered_expression_roundtrip.

(* capture reads its identifier and requires the end of the expression *)
Theorem C04_capture_roundtrip : forall s, parse_payload KCapture (print_payload expr_is_prop (YIdent s)) = Ok (YIdent s).
Proof. exact (capture_roundtrip expr_is_prop expr_is_prop_not_kw). Qed.
Print Assumptions C04_capture_roundtrip.

(* the recorded finding (nil prints as nothing) is why nil is excluded by the guard: as an argument the text does not parse; in a
   when-list it does not parse either, and with the parser as it was before fix C03-when-list-strict (parse_when_old) it silently
   parsed to a shorter list *)
Theorem C04_nil_argument_refuted :
  let y := YExpr (XFilt {| fe_left := v1 "x"; fe_filters := [{| f_name := lit "default"; f_args := [AKw (lit "k") PNil; APos (PInt 1)] |}] |}) in
  parse_payload KExpr (print_payload expr_is_prop y) = Err ESyntax.
Proof. vm_compute. reflexivity. Qed.
Print Assumptions C04_nil_argument_refuted.

Theorem C04_nil_when_refuted :
  parse_payload KWhen (print_payload expr_is_prop (YWhen [PInt 1; PNil; PInt 2])) = Err ESyntax /\
  parse_when_old (print_payload expr_is_prop (YWhen [PInt 1; PNil; PInt 2])) = Ok [PInt 1].
Proof. vm_compute. split; reflexivity. Qed.
Print Assumptions C04_nil_when_refuted.

(* the code before the repairs, refuted by witness (each is replayed on the implementation by the generated cases of layer F) *)
Theorem C04_old_keyword_segment_refuted :
  let y := YExpr (XFilt {| fe_left := PPath [SName (lit "x"); SName (lit "if")]; fe_filters := [] |}) in
  wf_payload y = true /\ print_payload old_is_prop y = [EWord (lit "x"); EDot; EIf] /\
  parse_payload KExpr (print_payload old_is_prop y) = Err ESyntax.
Proof. vm_compute. repeat split. Qed.
Print Assumptions C04_old_keyword_segment_refuted.

Theorem C04_old_identifier_refuted :
  print_ident_old (lit "if") = [EIf] /\ parse_payload KIdent (print_ident_old (lit "if")) = Err ESyntax /\
  parse_payload KIdent (print_payload expr_is_prop (YIdent (lit "if"))) = Ok (YIdent (lit "if")).
Proof. vm_compute. repeat split. Qed.
Print Assumptions C04_old_identifier_refuted.

Theorem C04_old_bound_variable_refuted :
  let y := YInclude {| in_name := PStr (lit "p"); in_bind := Some ([SName (lit "1x")], None); in_args := [] |} in
  wf_payload y = true /\ parse_payload_gen false KInclude (print_payload expr_is_prop y) = Err ESyntax.
Proof. vm_compute. split; reflexivity. Qed.
Print Assumptions C04_old_bound_variable_refuted.

Theorem C04_old_filter_argument_refuted :
  let y := YExpr (XFilt {| fe_left := v1 "x"; fe_filters := [{| f_name := lit "f"; f_args := [APos (v1 "a?")] |}] |}) in
  wf_payload y = true /\ parse_payload_gen false KExpr (print_payload expr_is_prop y) = Err ESyntax.
Proof. vm_compute. split; reflexivity. Qed.
Print Assumptions C04_old_filter_argument_refuted.

(* ---------------- whole templates with structured payloads (TemplateFull.v): the two halves composed ----------------
   A tree whose output statements carry an expression and whose tags carry the payload their parse method builds (a payload of ExprSyntax,
   a condition for if / elsif / unless, nothing, or opaque text for liquid / inline comments).  The serialiser writes every payload with
   print_payload / print2 into the tag-level tokens of TagTree; the parser is Parser.parse_block (TagTree.parse_template) followed by each
   tag's own expression parser on the tokens the expression lexer yields for the tag's text.  The lexer [lex] and the spelling of a token
   list [render] are parameters; wf_full asks, for the payloads IN THE TREE, lex (render ts) = Ok ts (assumed: not discharged by ExprLex;
   checked case by case by the harness's tokenisers), besides TagTree's wf_nodes for the shape and wf_payload for every payload. *)

(* for EVERY well-formed template tree -- any nesting of block tags and sections, any payload in every tag, any condition tree -- parsing
   the serialisation gives back exactly the tree; any tag register that is coherent, any test for dotted names that never accepts a keyword *)
Theorem C04_template_roundtrip : forall is_prop, (forall s, is_prop s = true -> is_kw s = false) ->
  forall render lex tag_kind, reg_ok tag_kind -> forall tpk_of t, wf_full is_prop render lex tag_kind tpk_of t ->
  parse_template_full lex tag_kind tpk_of (print_template_full is_prop render t) = Ok t.
Proof. exact full_roundtrip. Qed.
Print Assumptions C04_template_roundtrip.

(* ... in particular for the standard tags with the parser each of them uses, and the implementation's is_property *)
Theorem C04_standard_template_roundtrip : forall render lex t, wf_full expr_is_prop render lex std_kind std_tpk t ->
  parse_template_full lex std_kind std_tpk (print_template_full expr_is_prop render t) = Ok t.
Proof. exact std_full_roundtrip. Qed.
Print Assumptions C04_standard_template_roundtrip.

(* the re-parsed template IS the original tree, hence renders identically on every data, and its serialisation is the same text *)
Theorem C04_template_same_tree : forall render lex t, wf_full expr_is_prop render lex std_kind std_tpk t ->
  exists t', parse_template_full lex std_kind std_tpk (print_template_full expr_is_prop render t) = Ok t' /\ t' = t /\
             print_template_full expr_is_prop render t' = print_template_full expr_is_prop render t.
Proof. exact (fun render lex => full_same_tree expr_is_prop expr_is_prop_not_kw render lex std_kind std_reg_ok std_tpk). Qed.
Print Assumptions C04_template_same_tree.

(* from SOURCE tokens: if the parser accepts them and the tree it builds is well formed, str() parses again and a second str() is the same *)
Theorem C04_template_idempotent : forall render lex ts t, parse_template_full lex std_kind std_tpk ts = Ok t ->
  wf_full expr_is_prop render lex std_kind std_tpk t ->
  exists t', parse_template_full lex std_kind std_tpk (print_template_full expr_is_prop render t) = Ok t' /\
             print_template_full expr_is_prop render t' = print_template_full expr_is_prop render t.
Proof. exact (fun render lex => full_idempotent expr_is_prop expr_is_prop_not_kw render lex std_kind std_reg_ok std_tpk). Qed.
Print Assumptions C04_template_idempotent.

(* non-vacuity / reading aids *)
Example C04_print2_example :
  print2 (BOr (BAnd (BVar (lit "a")) (BNot (BVar (lit "b")))) (BCmp OEq (BVar (lit "c")) (BAnd (BVar (lit "a")) (BVar (lit "b"))))) =
  [TLParen; TVar (lit "a"); TAnd; TNot; TVar (lit "b"); TRParen; TOr; TVar (lit "c"); TOp OEq; TLParen; TVar (lit "a"); TAnd; TVar (lit "b"); TRParen].
Proof. vm_compute. reflexivity. Qed.

Example C04_structure_example :
  let t := [NText (slit "a"); NBlock (slit "if") (slit "x") [NOut (slit "y")] [(slit "else", [], [NInline (slit "echo") (slit "z"); NRaw (slit "{{")])]] in
  wf_nodes std_kind t = true /\ parse_template std_kind (print_nodes t) = Ok t.
Proof. vm_compute. split; reflexivity. Qed.

(* the guards of the expression theorems are satisfiable: an output expression using every expression construct, and a when-list
   (one payload of every kind: ExprSyntax_Tags_Proofs.big_payloads_wf) *)
Example C04_expression_example :
  wf_payload (YExpr big_expr) = true /\
  print_payload expr_is_prop (YWhen [PInt 1; PStr (lit "a"); v1 "y"]) = [EInt 1; EComma; EStr (lit "a"); EComma; EWord (lit "y")] /\
  parse_payload KExpr (print_payload expr_is_prop (YExpr big_expr)) = Ok (YExpr big_expr).
Proof. vm_compute. repeat split. Qed.

(* wf_full is satisfiable, lexer hypothesis included: a template using every payload kind except render and echo, with a lexer given as a finite table *)
Example C04_template_example :
  wf_full expr_is_prop demo_render demo_lex std_kind std_tpk demo_tree /\
  parse_template_full demo_lex std_kind std_tpk (print_template_full expr_is_prop demo_render demo_tree) = Ok demo_tree.
Proof. split; [exact demo_wf_full|exact demo_roundtrip]. Qed.
