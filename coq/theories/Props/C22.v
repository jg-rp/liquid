(* C22 — Template loaders never read outside their search paths.
   Model: LoaderPath.v — FileSystemLoader.resolve_path and PackageLoader._resolve_path (repaired code:
   [fs_load false], [pkg_load false]; the code as found: [... true]) over the PurePosixPath rules they use.
   The file system is a parameter: [v : fsview] says what stat and realpath answer; the theorems hold for
   EVERY such view, every list of search directories, every name (any characters, any length). *)
From LiquidVerif Require Import Prelude LoaderPath LoaderPath_Proofs.

(* Lexical containment, file-system loader.  Whatever the name, if a location q is returned then
   q = b ++ l for a configured search directory b and components l that are non-empty, contain no '/', are
   neither "." nor "..": the base is a prefix of q, and remains one after ".." is normalised away
   (norm q = norm b ++ l) -- the name cannot climb out of the directory.  And q is a regular file. *)
Theorem C22_lexical_containment : forall c v bases s q,
  cfg_ok c -> fs_load false c v bases s = Ok q -> contained bases q /\ stat v q = SFile.
Proof.
  intros c v bases s q Hc H.
  destruct (load_located _ _ c v bases q (fun _ => eq_refl) (fun p => fs_resolve_name_accepts c s p Hc) H) as (Hs & Hcont & _).
  split; assumption.
Qed.
Print Assumptions C22_lexical_containment.

(* Symlink decision.  With reject_symlinks on, a returned location resolves (realpath) to a place under the
   resolved search directory it was found in: a link leading out of the directory is never followed. *)
Theorem C22_symlink_decision : forall c v bases s q,
  cfg_ok c -> f_reject c = true -> fs_load false c v bases s = Ok q ->
  exists b rq rb, In b bases /\ is_prefix b q = true /\
                  real v q = Some rq /\ real v b = Some rb /\ is_prefix rb rq = true.
Proof.
  intros c v bases s q Hc Hr H.
  apply (load_located _ _ c v bases q (fun _ => eq_refl) (fun p => fs_resolve_name_accepts c s p Hc) H), Hr.
Qed.
Print Assumptions C22_symlink_decision.

(* A name that cannot be resolved raises TemplateNotFoundError and nothing else -- including when stat
   fails with an errno pathlib does not swallow (ENAMETOOLONG ...), when realpath fails, for the empty name. *)
Theorem C22_only_not_found : forall c v bases s e, fs_load false c v bases s = Err e -> e = ENotFound.
Proof. intros c v bases s e. apply answers_err, fs_load_answers. Qed.
Print Assumptions C22_only_not_found.

(* Exactly which names are refused before the file system is consulted: no component at all ('', '.', '/'),
   an absolute name, or a ".." component; every other name is searched for. *)
Theorem C22_refusal_exact : forall c s,
  cfg_ok c ->
  (exists p, fs_resolve_name c s = Ok p) \/
  (fs_resolve_name c s = Err ENotFound /\
   (p_parts (parse s) = [] \/ is_absolute (parse s) = true \/ In dotdot (p_parts (parse s)))).
Proof.
  intros c s Hc. rewrite fs_resolve_name_eq. destruct (is_nil (name (parse s))) eqn:Hn.
  - right. split; [reflexivity|]. left. apply name_nil_parts, Hn.
  - cbv zeta.
    destruct (with_ext_clean (f_ext c) (parse s) (fun e => cfg_ok_ext c e Hc) (parse_parts_clean s) Hn)
      as (Hr & _ & _ & Hd).
    destruct (has_pardir _) eqn:Hp; [right; split; [reflexivity|]; right; right; apply Hd, has_pardir_spec, Hp|].
    destruct (is_absolute _) eqn:Ha; [|left; eexists; reflexivity].
    right. split; [reflexivity|]. right. left. unfold is_absolute in *. rewrite <- Hr. exact Ha.
Qed.
Print Assumptions C22_refusal_exact.

(* containment and the only error, for the package loader (repaired); it has no symlink option *)
Theorem C22_pkg_lexical_containment : forall e v bases s q,
  ext_ok e \/ e = [] -> pkg_load false e v bases s = Ok q -> contained bases q /\ stat v q = SFile.
Proof.
  intros e v bases s q He H.
  destruct (load_located _ _ _ v bases q (pkg_search_fs false v bases) (fun p => pkg_resolve_name_accepts e s p He) H)
    as (Hs & Hcont & _).
  split; assumption.
Qed.
Print Assumptions C22_pkg_lexical_containment.

Theorem C22_pkg_only_not_found : forall e v bases s x, pkg_load false e v bases s = Err x -> x = ENotFound.
Proof. intros e v bases s x. apply answers_err, pkg_load_answers. Qed.
Print Assumptions C22_pkg_only_not_found.

(* the model's functions are total: an answer is a location or an exception class, never "out of fuel" *)
Theorem C22_total : forall c e v bases s,
  fs_load false c v bases s <> OutOfFuel /\ pkg_load false e v bases s <> OutOfFuel.
Proof. intros c e v bases s. split; apply answers_fuel; [apply fs_load_answers|apply pkg_load_answers]. Qed.
Print Assumptions C22_total.

(* pathlib facts the above rests on, proved of the model's parser: every parsed component is non-empty, not
   "." and free of '/'; str() followed by parsing is the identity on such paths (so joinpath, which re-parses the
   text, appends exactly the components); appending ".."-free components commutes with normalisation *)
Theorem C22_parse_components_clean : forall s, Forall clean (p_parts (parse s)).
Proof. exact parse_parts_clean. Qed.
Print Assumptions C22_parse_components_clean.

Theorem C22_render_parse_roundtrip : forall p, Forall clean (p_parts p) -> parse (render p) = p.
Proof. exact parse_render. Qed.
Print Assumptions C22_render_parse_roundtrip.

Theorem C22_no_climbing : forall b l, ~ In dotdot l -> norm (b ++ l) = norm b ++ l.
Proof. exact norm_app_contained. Qed.
Print Assumptions C22_no_climbing.

(* ------------------------------------------------------------------ non-vacuity and witnesses *)
Definition s_root : str := [114; 111; 111; 116]%N.                            (* "root" *)
Definition s_index : str := [105; 110; 100; 101; 120]%N.                       (* "index" *)
Definition s_liquid : str := [46; 108; 105; 113; 117; 105; 100]%N.             (* ".liquid" *)
Definition s_etc : str := [101; 116; 99]%N.                                    (* "etc" *)
Definition s_passwd : str := [112; 97; 115; 115; 119; 100]%N.                  (* "passwd" *)
Definition s_sub : str := [115; 117; 98]%N.
Definition base : apath := [[115; 114; 118]%N; s_root].                        (* /srv/root *)
Definition cfgL : fscfg := {| f_ext := Some s_liquid; f_reject := true |}.

(* a view in which /srv/root/index.liquid is a file inside the root, /srv/root/sub.liquid is a file that
   resolves to /etc/passwd (a symlink out), and /etc/passwd.liquid exists *)
Definition view : fsview :=
  {| v_stat := [(base ++ [s_index ++ s_liquid], SFile); (base ++ [s_sub ++ s_liquid], SFile);
                ([s_etc; s_passwd ++ s_liquid], SFile); ([s_etc; s_passwd], SFile)];
     v_real := [(base, Some base); (base ++ [s_index ++ s_liquid], Some (base ++ [s_index ++ s_liquid]));
                (base ++ [s_sub ++ s_liquid], Some [s_etc; s_passwd])] |}.

Example C22_found_example :
  cfg_ok cfgL /\
  fs_load false cfgL view [base] ([46; 47]%N ++ s_index) = Ok (base ++ [s_index ++ s_liquid]) /\     (* "./index" *)
  fs_load false cfgL view [base] s_sub = Err ENotFound /\                                              (* link out: rejected *)
  fs_load false {| f_ext := Some s_liquid; f_reject := false |} view [base] s_sub = Ok (base ++ [s_sub ++ s_liquid]) /\
  fs_load false cfgL view [base] ([47]%N ++ s_etc ++ [47]%N ++ s_passwd) = Err ENotFound /\            (* "/etc/passwd" *)
  fs_load false cfgL view [base] ([46; 46; 47]%N ++ s_index) = Err ENotFound.                          (* "../index" *)
Proof.
  split; [split; [discriminate|cbn; intuition discriminate]|]. vm_compute. repeat split.
Qed.

(* --- the defects of the code as found --- *)
(* PackageLoader accepted absolute names: joinpath replaces the package directory *)
Example C22_pkg_absolute_refuted :
  pkg_load true s_liquid view [base] ([47]%N ++ s_etc ++ [47]%N ++ s_passwd) = Ok [s_etc; s_passwd ++ s_liquid] /\
  pkg_load true s_liquid view [base] ([47]%N ++ s_etc ++ [47]%N ++ s_passwd ++ s_liquid) = Ok [s_etc; s_passwd ++ s_liquid] /\
  is_prefix base [s_etc; s_passwd ++ s_liquid] = false /\
  pkg_load false s_liquid view [base] ([47]%N ++ s_etc ++ [47]%N ++ s_passwd) = Err ENotFound.
Proof. vm_compute. repeat split. Qed.

(* PackageLoader raised ValueError (Path.with_suffix) for the empty name, '.', '/' *)
Example C22_pkg_empty_name_refuted :
  pkg_load true s_liquid view [base] [] = Err EValueError /\ pkg_load true s_liquid view [base] [46]%N = Err EValueError /\
  pkg_load true s_liquid view [base] [47]%N = Err EValueError /\ pkg_load false s_liquid view [base] [] = Err ENotFound.
Proof. vm_compute. repeat split. Qed.

(* both loaders let the OSError of exists()/is_file() escape (a component longer than the file system allows) *)
Example C22_oserror_refuted :
  let v := {| v_stat := [(base ++ [s_index ++ s_liquid], SErr)]; v_real := [] |} in
  fs_load true cfgL v [base] s_index = Err EOSError /\ pkg_load true s_liquid v [base] s_index = Err EOSError /\
  fs_load false cfgL v [base] s_index = Err ENotFound /\ pkg_load false s_liquid v [base] s_index = Err ENotFound.
Proof. vm_compute. repeat split. Qed.
