(* C23 — Caching loaders are transparent.
   Model: CachingLoader.v (CachingLoaderMixin.load/load_async/_check_cache/_check_cache_async/cache_key,
   BaseLoader.load/load_async, BoundTemplate.is_up_to_date(_async), over the LRU cache of Lru.v).
   [run fixed c (init c st) rs]  : the responses of ONE caching loader (repaired code) to the history rs,
                                   starting with an empty cache over the sources st;
   [ref_run c st rs]             : the responses of a fresh non-caching loader to each request, over the
                                   sources as they are at that moment (edits applied).
   A response to a Get is the template returned: name, which source entry (name, namespace) and which
   version of it, globals.  Sources can be edited, DELETED and re-created between requests.  *)
From LiquidVerif Require Import Prelude Lru CachingLoader CachingLoader_Proofs.

(* For every history (any length, any interleaving of get_template / get_template_async, namespaces by
   keyword argument or render context, globals, edits), every capacity and every store: with auto_reload
   on (and a loader whose uptodate check notices edits) every response of the caching loader EQUALS the
   response of a non-caching loader: same name, same source entry, CURRENT version, the globals of this
   request; not-found stays not-found; a source deleted after it was cached gives TemplateNotFoundError (and
   nothing else) on the next request, and a source re-created later is loaded again.
   _partial: under the side condition [keys_injective] (two requests of the history with the same cache
   key read the same source entry); without it the statement is false, see C23_key_collision_refuted. *)
Theorem C23_transparent_partial : forall c st rs,
  awaitable_uptodate c = false -> missing_raises c = false -> keys_injective c rs ->
  auto_reload c = true -> detects c = true ->
  run fixed c (init c st) rs = ref_run c st rs.
Proof.
  intros c st rs Haw Hmr Hk Har Hdet. apply (run_spec_init c st rs Haw Hmr Hk). left. split; assumption.
Qed.
Print Assumptions C23_transparent_partial.

(* the same equality for histories in which no source is edited or deleted, whatever auto_reload and the
   uptodate check are *)
Theorem C23_transparent_no_edits_partial : forall c st rs,
  awaitable_uptodate c = false -> missing_raises c = false -> keys_injective c rs -> no_edits rs ->
  run fixed c (init c st) rs = ref_run c st rs.
Proof. intros c st rs Haw Hmr Hk Hne. apply (run_spec_init c st rs Haw Hmr Hk). right. exact Hne. Qed.
Print Assumptions C23_transparent_no_edits_partial.

(* for every history and configuration (auto_reload off, edits, deletions, any capacity): a template returned
   is the one the non-caching loader builds for THIS request -- its name, its SOURCE ENTRY (name and namespace),
   its globals -- from some version of that entry (only the version may be old; without auto-reload a deleted
   source may still be served); and an error is returned only where the non-caching loader returns the same
   error.  In particular templates of different namespaces (or names) are never substituted for one another. *)
Theorem C23_no_cross_namespace_partial : forall c st rs,
  awaitable_uptodate c = false -> missing_raises c = false -> keys_injective c rs ->
  all_ok c st rs (run fixed c (init c st) rs).
Proof. intros c st rs Haw Hmr Hk. apply (run_spec_init c st rs Haw Hmr Hk). Qed.
Print Assumptions C23_no_cross_namespace_partial.

(* deletion and re-creation spelled out on the shortest history: cached, deleted => TemplateNotFoundError,
   written again => the new text (a version never seen before), for every configuration with auto-reload *)
Theorem C23_deleted_then_recreated : forall c st g v,
  awaitable_uptodate c = false -> missing_raises c = false -> auto_reload c = true -> detects c = true ->
  slookup (srckey c g) st = Some v ->
  run fixed c (init c st)
      [Get g; Delete (fst (srckey c g)) (snd (srckey c g)); Get g; Edit (fst (srckey c g)) (snd (srckey c g)); Get g] =
  [RT (fresh_tmpl c g v); RDone; RE ENotFound; RDone; RT (fresh_tmpl c g (N.succ v))].
Proof.
  intros c st g v Haw Hmr Har Hdet Hv.
  rewrite C23_transparent_partial; auto.
  - (* at the specification: found, removed, written again with the next version *)
    cbn [ref_run]. rewrite <- surjective_pairing, !(ref_get_fixed c Haw), Hv.
    rewrite slookup_sdelete_same, slookup_sedit_same, sversion_sdelete, (slookup_sversion _ _ _ Hv). reflexivity.
  - (* the only request of the history is g *)
    intros g1 g2 H1 H2 _.
    assert (E : forall x, In (Get x) [Get g; Delete (fst (srckey c g)) (snd (srckey c g)); Get g;
                                      Edit (fst (srckey c g)) (snd (srckey c g)); Get g] -> x = g).
    { intros x Hx. cbn in Hx. repeat (destruct Hx as [Hx|Hx]; [try discriminate; inversion Hx; reflexivity|]). destruct Hx. }
    rewrite (E _ H1), (E _ H2). reflexivity.
Qed.
Print Assumptions C23_deleted_then_recreated.

(* Every template handed out during a history, observed AGAIN when the history is over ([run_again]: the object
   read from the final heap), is exactly what it was when it was returned -- for every history, configuration and
   store, with no side condition: later requests with other globals, reloads, evictions, edits and deletions do not
   reach a template returned earlier.  (Refuted for the code that rebinds `cached_template.globals` in place:
   C23_earlier_responses_refuted.) *)
Theorem C23_earlier_responses_unaffected : forall c st rs,
  run_again fixed c (init c st) rs = run fixed c (init c st) rs.
Proof.
  intros c st rs. assert (Hb : hbound (st_heap (init c st))) by (intros id t []).
  unfold run_again. apply reobserve_all; [exact Hb|]. apply heap_ext_refl, (final_ext c rs _ Hb).
Qed.
Print Assumptions C23_earlier_responses_unaffected.

(* the model's "cache entry without an object" outcome never occurs *)
Theorem C23_never_internal : forall c st rs,
  awaitable_uptodate c = false -> missing_raises c = false -> keys_injective c rs -> ~ In RInternal (run fixed c (init c st) rs).
Proof. intros c st rs Haw Hmr Hk. eapply all_ok_no_internal, C23_no_cross_namespace_partial; assumption. Qed.
Print Assumptions C23_never_internal.

(* the side condition is decidable by the executable check the correspondence run evaluates on every case *)
Theorem C23_side_condition_checked : forall c rs, keys_injective_b c rs = true -> keys_injective c rs.
Proof.
  unfold keys_injective_b, keys_injective. intros c rs H g1 g2 H1 H2 E.
  rewrite forallb_forall in H. apply gets_of_In in H1, H2.
  specialize (H _ H1). rewrite forallb_forall in H. specialize (H _ H2).
  unfold pair_ok in H. apply orb_true_iff in H. destruct H as [H|H].
  - apply negb_true_iff in H. rewrite E, str_eqb_refl in H. discriminate.
  - apply skey_eqb_eq. exact H.
Qed.
Print Assumptions C23_side_condition_checked.

(* ... and holds for every history in two situations described by the configuration alone:
   no namespace key on a loader that ignores namespaces; *)
Theorem C23_side_condition_plain : forall c rs, nk c = [] -> aware c = false -> keys_injective c rs.
Proof.
  intros c rs Hnk Haw g1 g2 _ _ E. unfold ckey, cache_key in E. rewrite Hnk in E.
  unfold srckey, source_key. rewrite Haw, E. reflexivity.
Qed.
Print Assumptions C23_side_condition_plain.

(* every request carries a namespace, and namespaces contain no '/' (names may) *)
Theorem C23_side_condition_namespaced : forall c rs,
  nk c <> [] ->
  (forall g, In (Get g) rs -> exists ns, eff_ns (g_kw g) (g_ctx g) = Some ns /\ no_slash ns) ->
  keys_injective c rs.
Proof.
  intros c rs Hnk Hall g1 g2 H1 H2 E.
  destruct (Hall _ H1) as (n1 & E1 & S1). destruct (Hall _ H2) as (n2 & E2 & S2).
  assert (K : forall g n, eff_ns (g_kw g) (g_ctx g) = Some n -> ckey c g = n ++ [slash] ++ g_name g).
  { intros g n En. unfold ckey, cache_key. destruct (nk c); [congruence|].
    unfold eff_ns in En. destruct (g_kw g); [inversion En; reflexivity|]. rewrite En. reflexivity. }
  rewrite (K _ _ E1), (K _ _ E2) in E. apply split_first_slash in E; auto. destruct E as [-> En].
  unfold srckey, source_key. rewrite E1, E2, En. reflexivity.
Qed.
Print Assumptions C23_side_condition_namespaced.

(* the two hand-written copies _check_cache / _check_cache_async behave identically whenever the cached
   template's uptodate callable need not be awaited (all variants of the code) *)
Theorem C23_sync_async_copies_agree : forall v c s key gl load,
  (forall cache1 id t, do_get (st_cache s) (enc key) = (cache1, Some id) ->
                       hget id (st_heap s) = Some t -> t_awaitable t = false) ->
  check_cache v c s key gl load = check_cache_async v c s key gl load.
Proof. exact check_cache_sync_async. Qed.
Print Assumptions C23_sync_async_copies_agree.

(* the coding of string cache keys into the N keys of Lru.v loses nothing *)
Theorem C23_key_coding_injective : forall a b, enc a = enc b -> a = b.
Proof. exact enc_inj. Qed.
Print Assumptions C23_key_coding_injective.

(* ------------------------------------------------------------------ non-vacuity, witnesses *)
Definition n_a : str := [97]%N.            (* "a" *)
Definition n_db : str := [100; 47; 98]%N.  (* "d/b" *)
Definition n_x : str := [120]%N.
Definition n_y : str := [121]%N.
Definition n_xa : str := [120; 47; 97]%N.  (* "x/a" *)
Definition uid : str := [117; 105; 100]%N.

Definition cfg (aw : bool) : config :=
  {| nk := uid; auto_reload := true; capacity := 1; aware := aw; detects := true; awaitable_uptodate := false; missing_raises := false; env_g := 0 |}.
Definition G (m : mode) (n : str) (kw : option str) (g : N) : request :=
  Get {| g_mode := m; g_name := n; g_kw := kw; g_ctx := None; g_globals := g |}.
Definition st_ns : store :=
  [((n_a, Some n_x), (0%N, true)); ((n_a, Some n_y), (0%N, true)); ((n_db, Some n_x), (0%N, true))].
Definition st_plain : store := [((n_a, None), (0%N, true)); ((n_db, None), (0%N, true)); ((n_xa, None), (0%N, true))].

(* a history that satisfies every hypothesis of C23_transparent_partial and exercises hits, eviction, an edit
   and two namespaces *)
Definition h1 : list request :=
  [G Sync n_a (Some n_x) 1; G Async n_a (Some n_x) 0; G Async n_a (Some n_y) 2; Edit n_a (Some n_x); G Sync n_a (Some n_x) 0;
   G Async n_db (Some n_y) 0; Delete n_a (Some n_x); G Async n_a (Some n_x) 0; Edit n_a (Some n_x); G Sync n_a (Some n_x) 2].
Example C23_hypotheses_satisfiable :
  keys_injective_b (cfg true) h1 = true /\
  run fixed (cfg true) (init (cfg true) st_ns) h1 =
  [RT {| t_name := n_a; t_src := (n_a, Some n_x); t_ver := 0; t_awaitable := false; t_globals := (0, 1)%N |};
   RT {| t_name := n_a; t_src := (n_a, Some n_x); t_ver := 0; t_awaitable := false; t_globals := (0, 0)%N |};
   RT {| t_name := n_a; t_src := (n_a, Some n_y); t_ver := 0; t_awaitable := false; t_globals := (0, 2)%N |};
   RDone;
   RT {| t_name := n_a; t_src := (n_a, Some n_x); t_ver := 1; t_awaitable := false; t_globals := (0, 0)%N |};
   RE ENotFound; RDone; RE ENotFound; RDone;
   RT {| t_name := n_a; t_src := (n_a, Some n_x); t_ver := 2; t_awaitable := false; t_globals := (0, 2)%N |}].
Proof. vm_compute. split; reflexivity. Qed.

(* --- the defects found in the code as it was, one transcription variant each ---
   (caching loader as found vs NON-caching loader as found: ref_run_v) *)
Definition v_swap : variant := {| v_async_swap := true; v_globals_if := false; v_async_rawname := false; v_hit_mutates := true |}.
Definition v_gif : variant := {| v_async_swap := false; v_globals_if := true; v_async_rawname := false; v_hit_mutates := true |}.
Definition v_raw : variant := {| v_async_swap := false; v_globals_if := false; v_async_rawname := true; v_hit_mutates := true |}.

(* load_async used `name` as the cache key and `cache_key` as the template name: CachingDictLoader with a
   namespace key, get_template_async("a", uid="x") loads the template called "x/a" and caches it as "a";
   the same request for namespace y is then answered with it *)
Example C23_async_key_swap_refuted :
  let h := [G Async n_a (Some n_x) 0; G Async n_a (Some n_y) 0] in
  keys_injective_b (cfg false) h = true /\
  run v_swap (cfg false) (init (cfg false) st_plain) h <> ref_run_v v_swap (cfg false) st_plain h /\
  run fixed (cfg false) (init (cfg false) st_plain) h = ref_run (cfg false) st_plain h.
Proof. vm_compute. repeat split; try reflexivity. discriminate. Qed.

(* `if globals: cached_template.globals = globals`: a request without globals is answered with the globals of
   an earlier request *)
Example C23_stale_globals_refuted :
  let h := [G Sync n_a None 1; G Sync n_a None 0] in
  run v_gif (cfg false) (init (cfg false) st_plain) h <> ref_run_v v_gif (cfg false) st_plain h /\
  run fixed (cfg false) (init (cfg false) st_plain) h = ref_run (cfg false) st_plain h.
Proof. vm_compute. split; [discriminate|reflexivity]. Qed.

(* BaseLoader.load_async named the template `name`, load names it Path(full_name).name: the cache hands the
   template made by one to a request through the other *)
Example C23_sync_async_name_refuted :
  let h := [G Async n_db None 0; G Sync n_db None 0] in
  run v_raw (cfg false) (init (cfg false) st_plain) h <> ref_run_v v_raw (cfg false) st_plain h /\
  run fixed (cfg false) (init (cfg false) st_plain) h = ref_run (cfg false) st_plain h.
Proof. vm_compute. split; [discriminate|reflexivity]. Qed.

(* FileSystemLoader.get_source_async returned a coroutine function as `uptodate`: a template cached by
   get_template_async makes the next get_template raise LiquidError (is_up_to_date cannot await) *)
Example C23_awaitable_uptodate_refuted :
  let c := {| nk := []; auto_reload := true; capacity := 2; aware := false; detects := true; awaitable_uptodate := true; missing_raises := false; env_g := 0 |} in
  run fixed c (init c st_plain) [G Async n_a None 0; G Sync n_a None 0] =
  [RT {| t_name := n_a; t_src := (n_a, None); t_ver := 0; t_awaitable := true; t_globals := (0, 0)%N |}; RE ELiquid].
Proof. vm_compute. reflexivity. Qed.

(* FileSystemLoader._uptodate called stat() on a file that may be gone: with auto_reload on, a request for a
   template whose file was deleted after it was cached raised FileNotFoundError (an OSError), where the
   non-caching loader raises TemplateNotFoundError; sync and async alike *)
Example C23_deleted_source_refuted :
  let c := {| nk := []; auto_reload := true; capacity := 2; aware := false; detects := true; awaitable_uptodate := false;
              missing_raises := true; env_g := 0 |} in
  let h := [G Sync n_a None 0; Delete n_a None; G Sync n_a None 0; G Async n_a None 0] in
  run fixed c (init c st_plain) h =
    [RT {| t_name := n_a; t_src := (n_a, None); t_ver := 0; t_awaitable := false; t_globals := (0, 0)%N |};
     RDone; RE EOSError; RE EOSError] /\
  ref_run c st_plain h =
    [RT {| t_name := n_a; t_src := (n_a, None); t_ver := 0; t_awaitable := false; t_globals := (0, 0)%N |};
     RDone; RE ENotFound; RE ENotFound].
Proof. vm_compute. split; reflexivity. Qed.

(* A cache hit rebound `cached_template.globals` on the ONE object shared by every requester (also after the
   first repair, which made the rebinding unconditional): t = get_template("a", globals={g: 1}); any later request
   for "a" without globals; t now renders without g.  The response of the first request has changed after the fact. *)
Example C23_earlier_responses_refuted :
  let h := [G Sync n_a None 1; G Async n_a None 0] in
  run rebinding (cfg false) (init (cfg false) st_plain) h =
    [RT {| t_name := n_a; t_src := (n_a, None); t_ver := 0; t_awaitable := false; t_globals := (0, 1)%N |};
     RT {| t_name := n_a; t_src := (n_a, None); t_ver := 0; t_awaitable := false; t_globals := (0, 0)%N |}] /\
  run_again rebinding (cfg false) (init (cfg false) st_plain) h =
    [RT {| t_name := n_a; t_src := (n_a, None); t_ver := 0; t_awaitable := false; t_globals := (0, 0)%N |};
     RT {| t_name := n_a; t_src := (n_a, None); t_ver := 0; t_awaitable := false; t_globals := (0, 0)%N |}] /\
  run_again fixed (cfg false) (init (cfg false) st_plain) h = run fixed (cfg false) (init (cfg false) st_plain) h.
Proof. vm_compute. repeat split. Qed.

(* DictLoader gave no uptodate callable: with auto_reload on, an edited source is never picked up *)
Example C23_dict_never_reloads_refuted :
  let c := {| nk := []; auto_reload := true; capacity := 2; aware := false; detects := false; awaitable_uptodate := false; missing_raises := false; env_g := 0 |} in
  let h := [G Sync n_a None 0; Edit n_a None; G Sync n_a None 0] in
  run fixed c (init c st_plain) h <> ref_run c st_plain h.
Proof. vm_compute. discriminate. Qed.

(* --- recorded, not repaired: cache_key is not injective.  With a namespace key set on a loader that ignores
   namespaces, ("a", namespace x) and ("x/a", no namespace) share the key "x/a": the second request gets the
   first one's template.  This is exactly what the side condition excludes. *)
Example C23_key_collision_refuted :
  let h := [G Sync n_a (Some n_x) 0; G Sync n_xa None 0] in
  keys_injective_b (cfg false) h = false /\
  run fixed (cfg false) (init (cfg false) st_plain) h =
  [RT {| t_name := n_a; t_src := (n_a, None); t_ver := 0; t_awaitable := false; t_globals := (0, 0)%N |};
   RT {| t_name := n_a; t_src := (n_a, None); t_ver := 0; t_awaitable := false; t_globals := (0, 0)%N |}] /\
  ref_run (cfg false) st_plain h =
  [RT {| t_name := n_a; t_src := (n_a, None); t_ver := 0; t_awaitable := false; t_globals := (0, 0)%N |};
   RT {| t_name := n_a; t_src := (n_xa, None); t_ver := 0; t_awaitable := false; t_globals := (0, 0)%N |}].
Proof. vm_compute. repeat split; reflexivity. Qed.
