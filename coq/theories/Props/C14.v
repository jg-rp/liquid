(* C14 — Variables resolve to their innermost binding.  The property's theorems, proved from the lemmas of Scope_Proofs. *)
From Coq Require Import String.
From LiquidVerif Require Import Prelude PyPrims Scope Scope_Proofs.
Local Open Scope string_scope. Local Open Scope list_scope.

(* a name resolves to the first namespace that binds it in the documented order: pushed block namespaces
   (innermost first), assigned/captured variables, the globals chain, the builtin objects, the counters *)
Theorem C14_order : forall c x, resolve c x = first_hit x (chain c).
Proof. exact resolve_is_first_hit. Qed.
Print Assumptions C14_order.

(* innermost binding: whatever lies behind the first namespace binding the name is hidden *)
Theorem C14_innermost : forall c x pre m post v,
  chain c = pre ++ m :: post -> (forall m', In m' pre -> alookup x m' = None) -> alookup x m = Some v ->
  resolve c x = Some v.
Proof. intros c x pre m post v Hc Hpre Hm. rewrite resolve_is_first_hit, Hc. apply first_hit_skip; assumption. Qed.
Print Assumptions C14_innermost.

(* at the top level of a template: render arguments, then front matter, then template globals, then environment
   globals, then now/today (the merge {**env.globals, **template_globals} is the chain tglobals |> eglobals) *)
Theorem C14_global_layers : forall k x,
  NoDup (map fst (k_tglobals k)) ->
  resolve (init_ctx k) x = first_hit x [k_args k; k_matter k; k_tglobals k; k_eglobals k; builtin_ns].
Proof.
  intros k x Hnd. unfold resolve, init_ctx, top_globals. cbn [scopes locals gl counters first_hit alookup option_map].
  destruct (alookup x (k_args k)); [reflexivity|].
  destruct (alookup x (k_matter k)); [reflexivity|].
  rewrite merge_globals_lookup by exact Hnd.
  destruct (alookup x (k_tglobals k)); [reflexivity|].
  destruct (alookup x (k_eglobals k)); [reflexivity|].
  destruct (alookup x builtin_ns); reflexivity.
Qed.
Print Assumptions C14_global_layers.

(* block-scoped names vanish after their block: after ANY node — whether it completes, breaks, continues or
   raises — the pushed namespaces, the globals chain and the disabled tags are exactly those before it *)
Theorem C14_block_scope_vanishes : forall fuel E n c c' o s,
  exec fuel E n c = Done c' o s -> same_frame c c'.
Proof. exact exec_frame. Qed.
Print Assumptions C14_block_scope_vanishes.

(* so that a name resolves after the node as before it, unless the node assigned, captured or counted *)
Theorem C14_names_after_block : forall fuel E n c c' o s x,
  exec fuel E n c = Done c' o s -> locals c' = locals c -> counters c' = counters c -> resolve c' x = resolve c x.
Proof.
  intros fuel E n c c' o s x H Hl Hc. apply exec_frame in H. destruct H as (A & B & _ & _).
  unfold resolve. rewrite A, B, Hl, Hc. reflexivity.
Qed.
Print Assumptions C14_names_after_block.

(* assign writes the template's locals, whatever is pushed on the scopes ... *)
Theorem C14_assign_step : forall f E x e c v,
  eval_fexpr (e_filters E) (e_uk E) c e = Ok v ->
  exec (S f) E (NAssign x e) c = Done (assign c x v) [] Normal /\
  alookup x (locals (assign c x v)) = Some v /\ scopes (assign c x v) = scopes c.
Proof.
  intros f E x e c v H. split; [simpl; rewrite H; reflexivity|].
  destruct (assign_writes_locals c x v) as (A & B & _). split; assumption.
Qed.
Print Assumptions C14_assign_step.

(* ... and so does capture, with the text its block rendered *)
Theorem C14_capture_step : forall f E x body c c1 o,
  seq_nodes (exec f E) body c = Done c1 o Normal ->
  exec (S f) E (NCapture x body) c = Done (assign c1 x (VStr o)) [] Normal.
Proof. intros f E x body c c1 o H. simpl. rewrite H. reflexivity. Qed.
Print Assumptions C14_capture_step.

(* assignment from inside ANY nesting of with / for / if / capture blocks: the value is in the locals once all
   the blocks have ended (for over a non-empty range, if with a true condition, capture of another name) *)
Theorem C14_assign_toplevel : forall uk fs x lv fuel md ld ft c c' o s,
  (forall f c0, In f fs -> frame_ok_for x uk c0 f) ->
  exec fuel (Env md uk ld ft) (wrap_frames fs (NAssign x (FPlain (ELit lv) []))) c = Done c' o s ->
  (s = Normal \/ exists e, s = Raise e) /\ (s = Normal -> alookup x (locals c') = Some (val_of_scalar lv)).
Proof.
  intros uk fs x lv fuel md ld ft c c' o s Hok H.
  exact (ends_done _ _ _ _ _ (assign_under_blocks uk x lv md ld ft fs fuel c Hok) H).
Qed.
Print Assumptions C14_assign_toplevel.

(* include shares the caller's scope: what the partial assigns is assigned in the caller ... *)
Theorem C14_include_shares_assign : forall f E name x lv c,
  is_disabled TInclude c = false ->
  alookup name (e_loader E) = Some [NAssign x (FPlain (ELit lv) [])] ->
  exec (S (S f)) E (NInclude name None []) c = Done (assign c x (val_of_scalar lv)) [] Normal.
Proof.
  intros f E name x lv c Hd Hl. cbn [exec]. unfold exec_step at 1. rewrite Hd, Hl. cbn [eval_kwargs lift].
  unfold run_template, after. cbn [tmpl_nodes]. cbn [exec exec_step eval_fexpr eval_expr apply_filters bind lift].
  destruct (e_mode E); destruct c; reflexivity.
Qed.
Print Assumptions C14_include_shares_assign.

(* ... and the partial reads every variable of the caller (block scopes, locals, globals) *)
Theorem C14_include_shares_read : forall f E name y c v t,
  is_disabled TInclude c = false ->
  alookup name (e_loader E) = Some [NOut (FPlain (EPath (Path y [])) [])] ->
  y <> s_partial ->
  resolve c y = Some v -> to_output (e_uk E) v = Ok t ->
  exec (S (S f)) E (NInclude name None []) c = Done c t Normal.
Proof.
  intros f E name y c v t Hd Hl Hy Hr Ht. cbn [exec]. unfold exec_step at 1. rewrite Hd, Hl. cbn [eval_kwargs lift].
  unfold run_template, after. cbn [tmpl_nodes]. cbn [exec exec_step eval_fexpr eval_expr apply_filters bind lift].
  assert (R : resolve (push (push c []) [(s_partial, VBool true)]) y = Some v).
  { unfold resolve, push. cbn [scopes locals gl counters set_scopes first_hit alookup].
    destruct (str_eqb_spec y s_partial) as [E0|_]; [congruence|]. exact Hr. }
  unfold eval_path. cbn [p_segs p_root eval_segs bind]. rewrite R. cbn [walk bind lift]. rewrite Ht. cbn [lift].
  rewrite app_nil_r. destruct (e_mode E); destruct c; reflexivity.
Qed.
Print Assumptions C14_include_shares_read.

(* paths: a.b, a['b'] and a["b"] are the same path *)
Theorem C14_path_notation : forall g uk c p, eval_path uk c (restyle g p) = eval_path uk c p.
Proof.
  intros g uk c p. unfold eval_path, restyle. simpl.
  assert (E : eval_segs uk c (map (restyle_seg g) (p_segs p)) = eval_segs uk c (p_segs p)).
  { induction (p_segs p) as [|s l IH]; simpl; [reflexivity|]. rewrite IH. destruct s; reflexivity. }
  rewrite E. reflexivity.
Qed.
Print Assumptions C14_path_notation.

(* paths: index -k is the k-th item from the end; indexes outside -len .. len-1 are missing *)
Theorem C14_path_negative_index : forall g (l : list val) k z,
  ((1 <= k <= zlen l)%Z -> get_item g (VList l) (KI (- k)) = nth_error l (Z.to_nat (zlen l - k))) /\
  ((0 <= z < zlen l)%Z -> get_item g (VList l) (KI z) = nth_error l (Z.to_nat z)) /\
  ((z >= zlen l \/ z < - zlen l)%Z -> get_item g (VList l) (KI z) = None).
Proof.
  intros g l k z. repeat split; intro H; rewrite get_item_index_list.
  - apply py_index_negative; exact H.
  - apply py_index_nonneg; exact H.
  - apply py_index_out_of_range; exact H.
Qed.
Print Assumptions C14_path_negative_index.

(* paths: the size / first / last table (a key of that name in a dict wins), under EVERY combination of the string flags *)
Theorem C14_path_size_first_last : forall g l s d,
  get_item g (VList l) (KS s_size) = Some (VInt (zlen l)) /\
  get_item g (VStr s) (KS s_size) = Some (VInt (zlen s)) /\
  get_item g (VDict d) (KS s_size) = (match alookup s_size d with Some v => Some v | None => Some (VInt (zlen d)) end) /\
  get_item g (VList l) (KS s_first) = hd_error l /\
  get_item g (VList l) (KS s_last) = py_index l (-1) /\
  get_item g (VDict d) (KS s_first) =
    (match alookup s_first d with
     | Some v => Some v
     | None => match d with (k0, v0) :: _ => Some (VTuple [VStr k0; v0]) | [] => None end
     end) /\
  get_item default_flags (VStr s) (KS s_first) = None /\ get_item default_flags (VStr s) (KS s_last) = None.
Proof.
  intros g l s d. repeat split; auto using get_item_size_dict, get_item_first_list, get_item_first_dict.
Qed.
Print Assumptions C14_path_size_first_last.

(* paths into STRINGS under the feature flags: first / last are the first / last character exactly when
   string_first_and_last is set (missing for the empty string), an index is a character (negative from the end, missing
   out of range) exactly when string_sequences is set, size is always the length, a name never subscripts a string;
   lists and dicts ignore both flags *)
Theorem C14_path_string_flags : forall g g' s z l d k,
  get_item g (VStr s) (KS s_first) = (if fl_first_last g then option_map char_val (hd_error s) else None) /\
  get_item g (VStr s) (KS s_last) = (if fl_first_last g then option_map char_val (py_index s (-1)) else None) /\
  get_item g (VStr s) (KI z) = (if fl_sequences g then option_map char_val (py_index s z) else None) /\
  get_item g (VStr s) (KS s_size) = Some (VInt (zlen s)) /\
  get_item g (VList l) k = get_item g' (VList l) k /\ get_item g (VDict d) k = get_item g' (VDict d) k.
Proof.
  intros. repeat split; auto using get_item_list_flags, get_item_dict_flags.
Qed.
Print Assumptions C14_path_string_flags.

(* paths: with the default undefined type a path NEVER fails — anything missing is the undefined value *)
Theorem C14_missing_is_undefined : forall c p,
  (exists v, eval_path UDefault c p = Ok v) /\
  (resolve c (p_root p) = None -> eval_path UDefault c p = Ok VUndef).
Proof. intros c p. split; [apply eval_path_default_total|apply eval_path_missing_root]. Qed.
Print Assumptions C14_missing_is_undefined.

(* ---- non-vacuity and reading aids (tests) ---- *)
Definition ex_out (r : string) := NOut (FPlain (EPath (Path (slit r) [])) []).
Definition ex_assign (x v : string) := NAssign (slit x) (FPlain (ELit (LStr (slit v))) []).

(* shadowing through every layer: with > for > assign > render argument > matter > template > environment *)
Example C14_layers_example :
  run_case (Case MStrict UDefault default_flags []
              [(slit "a", VStr (slit "A"))] [(slit "a", VStr (slit "M")); (slit "m", VStr (slit "M"))]
              [(slit "m", VStr (slit "T")); (slit "t", VStr (slit "T"))] [(slit "t", VStr (slit "E")); (slit "e", VStr (slit "E"))]
              [ex_out "a"; ex_out "m"; ex_out "t"; ex_out "e"; ex_assign "e" "L"; ex_out "e";
               NWith [(slit "e", ELit (LStr (slit "W")))] [ex_out "e"; NFor (slit "e") (IRange 1 2) [ex_out "e"; ex_assign "e" "L2"; ex_out "e"] []; ex_out "e"];
               ex_out "e"])
  = Ok (slit "AMTELW1122WL2").
Proof. vm_compute. reflexivity. Qed.

(* the hypotheses of C14_assign_toplevel are satisfiable: assign under with > for > capture > if *)
Example C14_assign_toplevel_example :
  exists c' o, exec 10 (Env MStrict UDefault [] no_filters)
     (wrap_frames [FWith [(slit "x", ELit (LInt 1))]; FFor (slit "x") 1 2; FCapture (slit "y"); FIf (CAtom (CTruthy (ELit (LBool true)))) []]
                  (NAssign (slit "x") (FPlain (ELit (LStr (slit "v"))) []))) (init_ctx (Case MStrict UDefault default_flags [] [] [] [] [] []))
     = Done c' o Normal /\ alookup (slit "x") (locals c') = Some (VStr (slit "v")) /\ scopes c' = [].
Proof. eexists. eexists. split; [vm_compute; reflexivity|]. split; reflexivity. Qed.

(* an error inside nested blocks, swallowed in lax mode: the probes afterwards see no leftover scope *)
Example C14_error_balance_example :
  run_case (Case MLax UDefault default_flags [] [] [] [] []
              [NWith [(slit "x", ELit (LInt 1))] [NFor (slit "y") (IRange 1 2) [ex_out "y"; NRender (slit "missing") None []; NText (slit "z")] []];
               NText (slit "["); ex_out "x"; ex_out "y"; NText (slit "]")])
  = Ok (slit "1[]").
Proof. vm_compute. reflexivity. Qed.

(* include shares the caller's scope (reads the with-bound x and the local y, its assignment to z survives);
   the hypotheses of the two include theorems hold in such a run *)
Example C14_include_example :
  run_case (Case MStrict UDefault default_flags [(slit "p", [ex_out "x"; ex_out "y"; ex_assign "z" "pz"])] [] [] [] []
              [ex_assign "y" "ly"; NWith [(slit "x", ELit (LStr (slit "wx")))] [NInclude (slit "p") None []]; ex_out "z"; ex_out "x"])
  = Ok (slit "wxlypz").
Proof. vm_compute. reflexivity. Qed.

Example C14_global_layers_hypothesis :
  NoDup (map fst (k_tglobals (Case MStrict UDefault default_flags [] [] [] [(slit "m", VInt 1); (slit "t", VInt 2)] [] []))).
Proof. vm_compute. constructor; [intros [H|[]]; discriminate H|]. constructor; [intros []|constructor]. Qed.

(* the four flag combinations on one template: s.first, s.last, s[1], s[-1], s.size and a for loop over s = "abc" *)
Definition flag_probe (fl sq : bool) : res str :=
  let sp seg := NOut (FPlain (EPath (Path (slit "s") [seg])) []) in
  run_case (Case MStrict UDefault (Flags fl sq) [] [(slit "s", VStr (slit "abc"))] [] [] []
              [sp (SKey Dot (KName (slit "first"))); NText (slit "|"); sp (SKey Dot (KName (slit "last"))); NText (slit "|");
               sp (SKey Dot (KIndex 1)); NText (slit "|"); sp (SKey Dot (KIndex (-1))); NText (slit "|");
               sp (SKey Dot (KName (slit "size"))); NText (slit "|");
               NFor (slit "ch") (IPath (Path (slit "s") [])) [ex_out "ch"; NText (slit ",")] []]).
Example C14_string_flags_example :
  flag_probe false false = Ok (slit "||||3|abc,") /\ flag_probe true false = Ok (slit "a|c|||3|abc,") /\
  flag_probe false true = Ok (slit "||b|c|3|a,b,c,") /\ flag_probe true true = Ok (slit "a|c|b|c|3|a,b,c,").
Proof. vm_compute. repeat split. Qed.
