(* Expressions owned by tags: identifiers, loop expressions, argument lists, when-lists, cycle, include, render, assign --
   and the theorem for every payload. *)
From LiquidVerif Require Import Prelude PyPrims Cond CondPrint Cond_Proofs CondParen CondParen_Proofs StrLit PathSyntax PathSyntax_Proofs ExprSyntax ExprSyntax_Proofs.

Section Tags.
  Variable is_prop : str -> bool.
  Hypothesis is_prop_not_kw : forall s, is_prop s = true -> is_kw s = false.
  Local Notation print_path := (PathSyntax.print_path is_prop).
  Local Notation print_prim := (ExprSyntax.print_prim is_prop).
  Local Notation print_ident := (ExprSyntax.print_ident is_prop).
  Local Notation print_expr := (ExprSyntax.print_expr is_prop).
  Local Notation print_payload := (ExprSyntax.print_payload is_prop).
  Local Notation pprim_rt := (pprim_roundtrip is_prop is_prop_not_kw).

  (* ---- identifiers (path.quote_identifier / parse_identifier) ---- *)
  Lemma print_ident_path s : print_ident s = map of_ptok (print_path [SName s]).
  Proof.
    unfold ExprSyntax.print_ident, PathSyntax.print_path. cbn [PathSyntax.print_segs PathSyntax.print_seg]. destruct (is_prop s); reflexivity.
  Qed.

  Lemma ident_prim s rest : follow_ok rest -> pprim (print_ident s ++ rest) = Ok (PPath [SName s], rest).
  Proof.
    intro Hf. rewrite print_ident_path. apply (pprim_rt (PPath [SName s]) rest); [reflexivity|exact Hf].
  Qed.

  Lemma ident_roundtrip allow_q s rest : follow_ok rest -> allow_q || negb (ends_q s) = true ->
    parse_ident allow_q (print_ident s ++ rest) = Ok (s, rest).
  Proof.
    intros Hf Hq. unfold parse_ident. rewrite (ident_prim s rest Hf). cbn [bind fst snd].
    destruct allow_q; [reflexivity|]. cbn [orb negb andb] in Hq |- *. apply negb_true_iff in Hq. rewrite Hq. reflexivity.
  Qed.

  (* a bare word (an alias) is read as the identifier it spells *)
  Lemma word_ident s rest : follow_ok rest -> parse_ident true (EWord s :: rest) = Ok (s, rest).
  Proof.
    intro Hf. unfold parse_ident, pprim, pfuel. cbn [length ExprSyntax.parse_prim].
    rewrite (word_path s rest Hf). reflexivity.
  Qed.

  (* ---- loop expressions ----
     The options of a loop as a list of items in the order they are written.  LoopExpression.parse accepts them in any order
     (loop_items); the serialiser writes limit, offset, cols, reversed in that order (items_of). *)
  Inductive litem := LKey (k : etok) (p : prim) | LRev.
  Definition print_item (i : litem) : list etok := match i with LKey k p => k :: EColon :: print_prim p | LRev => [EReversed] end.
  Definition apply_item (l : loopx) (i : litem) : loopx := match i with LKey k p => set_loop l k p | LRev => set_rev l end.
  Definition item_ok (i : litem) : bool := match i with LKey k p => loop_key k && wf_prim p | LRev => true end.
  Definition lfollow (rest : list etok) : bool :=
    match rest with [] => true | t :: _ => match t with ELimit | EOffset | ECols | EReversed => true | _ => false end end.
  Lemma lfollow_ok rest : lfollow rest = true -> follow_ok rest.
  Proof. destruct rest as [|[] r]; cbn; intro; try discriminate; trivial. Qed.
  Lemma lfollow_skip rest : lfollow rest = true -> skip_comma rest = rest.
  Proof. destruct rest as [|[] r]; intro H; try discriminate H; reflexivity. Qed.

  (* the text of a list of items begins with a loop keyword, if it is not empty *)
  Lemma items_follow items : forallb item_ok items = true -> lfollow (flat_map print_item items) = true.
  Proof.
    destruct items as [|[k p|] r]; try reflexivity. cbn [forallb item_ok]. rewrite !andb_true_iff. intros [[Hk _] _].
    destruct k; try discriminate Hk; reflexivity.
  Qed.

  Lemma loop_items : forall items l fuel, forallb item_ok items = true -> length items < fuel ->
    parse_loop_args fuel l (flat_map print_item items) = Ok (fold_left apply_item items l).
  Proof.
    induction items as [|i items IH]; intros l fuel Hok Hfu; (destruct fuel as [|f]; [cbn in Hfu; lia|]); [reflexivity|].
    cbn [forallb] in Hok. apply andb_true_iff in Hok. destruct Hok as [Hi Hitems].
    pose proof (items_follow items Hitems) as Hnext.
    cbn [flat_map fold_left]. destruct i as [k p|].
    - cbn [item_ok] in Hi. apply andb_true_iff in Hi. destruct Hi as [Hk Hp].
      pose proof (pprim_rt p _ Hp (lfollow_ok _ Hnext)) as Hpp.
      destruct (print_prim_head is_prop is_prop_not_kw p Hp) as (t & r & Ht & Hst & _).
      assert (Hnc : is_continue (hd_tok (print_prim p ++ flat_map print_item items)) = false).
      { rewrite Ht. cbn. destruct t; try discriminate Hst; reflexivity. }
      cbn [print_item app apply_item].
      destruct k; try discriminate Hk; cbn [ExprSyntax.parse_loop_args is_reversed loop_key is_colon hd_tok hd_error tl is_offset andb];
        rewrite ?Hnc; rewrite Hpp; cbn [bind fst snd]; apply IH; try assumption; cbn [length] in Hfu; lia.
    - cbn [print_item app apply_item ExprSyntax.parse_loop_args is_reversed]. apply IH; [assumption|cbn [length] in Hfu; lia].
  Qed.

  Definition items_of (l : loopx) : list litem :=
    match lp_limit l with Some p => [LKey ELimit p] | None => [] end ++ match lp_offset l with Some p => [LKey EOffset p] | None => [] end
    ++ match lp_cols l with Some p => [LKey ECols p] | None => [] end ++ (if lp_rev l then [LRev] else []).

  (* what the serialiser writes after the iterable is the text of items_of; applying them to the bare loop gives the loop back *)
  Lemma items_of_spec id it lim off cols rv : wf_opt lim = true -> wf_opt off = true -> wf_opt cols = true ->
    let full := {| lp_id := id; lp_iter := it; lp_limit := lim; lp_offset := off; lp_cols := cols; lp_rev := rv |} in
    print_opt is_prop ELimit lim ++ print_opt is_prop EOffset off ++ print_opt is_prop ECols cols ++ (if rv then [EReversed] else [])
      = flat_map print_item (items_of full) /\
    forallb item_ok (items_of full) = true /\
    fold_left apply_item (items_of full) {| lp_id := id; lp_iter := it; lp_limit := None; lp_offset := None; lp_cols := None; lp_rev := false |} = full.
  Proof.
    intros Hlim Hoff Hcols. unfold items_of. cbn [lp_limit lp_offset lp_cols lp_rev].
    destruct lim, off, cols, rv; cbn [wf_opt] in Hlim, Hoff, Hcols; (split; [reflexivity|split; [|reflexivity]]);
      cbn [app forallb item_ok loop_key andb]; rewrite ?Hlim, ?Hoff, ?Hcols; reflexivity.
  Qed.

  Lemma items_length items : length items <= length (flat_map print_item items).
  Proof. induction items as [|i r IH]; [cbn; lia|]. cbn [flat_map length]. rewrite app_length. destruct i; cbn [print_item length]; lia. Qed.

  Lemma loop_roundtrip l : wf_loop l = true -> parse_loop (ExprSyntax.print_loop is_prop l) = Ok l.
  Proof.
    intro Hwf. destruct l as [id it lim off cols rv]. unfold wf_loop in Hwf. cbn [lp_iter lp_limit lp_offset lp_cols] in Hwf.
    rewrite !andb_true_iff in Hwf. destruct Hwf as [[[Hit Hlim] Hoff] Hcols].
    destruct (items_of_spec id it lim off cols rv Hlim Hoff Hcols) as (Hitems & Hok & Hfold). cbn zeta in Hitems, Hok, Hfold.
    unfold parse_loop, ExprSyntax.print_loop. cbn [lp_id lp_iter lp_limit lp_offset lp_cols lp_rev].
    rewrite (ident_roundtrip true id (EIn :: _) eq_refl eq_refl). cbn [bind fst snd].
    rewrite Hitems. pose proof (items_follow _ Hok) as Hlf.
    rewrite (pprim_rt it _ Hit (lfollow_ok _ Hlf)). cbn [bind fst snd].
    rewrite (lfollow_skip _ Hlf), (loop_items _ _ _ Hok (le_n_S _ _ (items_length _))), Hfold. reflexivity.
  Qed.

  (* ---- comma-separated lists: keyword arguments (include, render), positional arguments (cycle), when-lists ---- *)
  Definition kfollow (rest : list etok) : bool := match rest with [] => true | EComma :: _ => true | _ => false end.
  Lemma kfollow_inv rest : kfollow rest = true -> rest = [] \/ exists r, rest = EComma :: r.
  Proof. destruct rest as [|[] r]; intro H; try discriminate H; [left; reflexivity|right; eexists; reflexivity]. Qed.
  Lemma kfollow_ok rest : kfollow rest = true -> follow_ok rest.
  Proof. destruct rest as [|[] r]; cbn; intro; try discriminate; trivial. Qed.
  Lemma commas_follow {A} (pr : A -> list etok) l : kfollow (flat_map (fun x => EComma :: pr x) l) = true.
  Proof. destruct l; reflexivity. Qed.

  (* the three loops have one shape: at the end of the text they return what they have read; `, item` is one turn *)
  Lemma comma_loop {A} (loop : nat -> list A -> list etok -> res (list A)) (pr : A -> list etok) (okA : A -> bool) :
    (forall f acc, loop (S f) acc [] = Ok (rev acc)) ->
    (forall f acc a rest, okA a = true -> kfollow rest = true -> loop (S f) acc (EComma :: pr a ++ rest) = loop f (a :: acc) rest) ->
    forall l acc fuel, forallb okA l = true -> length l < fuel ->
    loop fuel acc (flat_map (fun a => EComma :: pr a) l) = Ok (rev acc ++ l).
  Proof.
    intros Hend Hstep. induction l as [|a l IH]; intros acc fuel Hok Hfu; (destruct fuel as [|f]; [cbn in Hfu; lia|]).
    - cbn [flat_map]. rewrite Hend, app_nil_r. reflexivity.
    - cbn [forallb] in Hok. apply andb_true_iff in Hok. destruct Hok as [Ha Hl]. cbn [flat_map app].
      rewrite (Hstep f acc a _ Ha (commas_follow pr l)), (IH (a :: acc) f Hl ltac:(cbn [length] in Hfu; lia)).
      cbn [rev]. rewrite <- app_assoc. reflexivity.
  Qed.

  Local Notation print_kwarg := (ExprSyntax.print_kwarg is_prop).

  Lemma kwarg_step f acc a rest : wf_name (fst a) && wf_prim (snd a) = true -> kfollow rest = true ->
    parse_kwargs_loop (S f) acc (EComma :: print_kwarg a ++ rest) = parse_kwargs_loop f (a :: acc) rest.
  Proof.
    destruct a as [k p]. cbn [fst snd]. intros Hkp Hr. apply andb_true_iff in Hkp. destruct Hkp as [Hk Hp].
    unfold ExprSyntax.print_kwarg. cbn [fst snd]. rewrite (word_tok_name k Hk). cbn [app ExprSyntax.parse_kwargs_loop skip_comma].
    rewrite (pprim_rt p rest Hp (kfollow_ok rest Hr)). cbn [bind fst snd].
    destruct (kfollow_inv rest Hr) as [->|[r ->]]; reflexivity.
  Qed.

  (* the loop skips a comma before each item, so the first item reads the same with one in front *)
  Lemma kwarg_lead f acc a rest : wf_name (fst a) = true ->
    parse_kwargs_loop (S f) acc (print_kwarg a ++ rest) = parse_kwargs_loop (S f) acc (EComma :: print_kwarg a ++ rest).
  Proof.
    intro Hk. unfold ExprSyntax.print_kwarg. rewrite (word_tok_name _ Hk). reflexivity.
  Qed.

  Lemma kwargs_roundtrip l : wf_kwargs l = true -> parse_kwargs (ExprSyntax.print_kwargs is_prop l) = Ok l.
  Proof.
    intro Hwf. destruct l as [|a l]; [reflexivity|]. unfold parse_kwargs, ExprSyntax.print_kwargs. cbn [skip_comma].
    rewrite join_flat, kwarg_lead.
    - apply (comma_loop parse_kwargs_loop print_kwarg _ (fun _ _ => eq_refl) kwarg_step (a :: l) [] _ Hwf).
      pose proof (commas_length print_kwarg l). rewrite app_length. unfold ExprSyntax.print_kwarg at 1. cbn [length]. lia.
    - unfold wf_kwargs in Hwf. cbn [forallb] in Hwf. rewrite !andb_true_iff in Hwf. apply Hwf.
  Qed.

  Lemma kwargs_follow l : kfollow (ExprSyntax.print_kwargs is_prop l) = true.
  Proof. destruct l; reflexivity. Qed.

  Lemma posarg_step f acc p rest : wf_prim p = true -> kfollow rest = true ->
    parse_posargs (S f) acc (EComma :: print_prim p ++ rest) = parse_posargs f (p :: acc) rest.
  Proof.
    intros Hp Hr. pose proof (pprim_rt p rest Hp (kfollow_ok rest Hr)) as Hpp.
    destruct (print_prim_head is_prop is_prop_not_kw p Hp) as (t & r & Ht & _). rewrite Ht in Hpp |- *.
    cbn [app ExprSyntax.parse_posargs skip_comma] in Hpp |- *. rewrite Hpp. reflexivity.
  Qed.

  Lemma posarg_lead f acc p rest : wf_prim p = true ->
    parse_posargs (S f) acc (print_prim p ++ rest) = parse_posargs (S f) acc (EComma :: print_prim p ++ rest).
  Proof.
    intro Hp. destruct (print_prim_head is_prop is_prop_not_kw p Hp) as (t & r & -> & Hst & _). destruct t; try discriminate Hst; reflexivity.
  Qed.

  Lemma posargs_roundtrip p l : forallb wf_prim (p :: l) = true ->
    parse_posargs (S (length (join [EComma] (map print_prim (p :: l))))) [] (join [EComma] (map print_prim (p :: l))) = Ok (p :: l).
  Proof.
    intro Hwf. assert (Hp : wf_prim p = true) by (cbn [forallb] in Hwf; apply andb_true_iff in Hwf; apply Hwf).
    rewrite join_flat, (posarg_lead _ _ p _ Hp).
    apply (comma_loop parse_posargs print_prim _ (fun _ _ => eq_refl) posarg_step (p :: l) [] _ Hwf).
    pose proof (commas_length print_prim l). rewrite app_length.
    destruct (print_prim_head is_prop is_prop_not_kw p Hp) as (t & r & -> & _). cbn [length]. lia.
  Qed.

  Lemma when_step f acc p rest : wf_prim p = true -> kfollow rest = true ->
    parse_when_loop (S f) acc (EComma :: print_prim p ++ rest) = parse_when_loop f (p :: acc) rest.
  Proof. intros Hp Hr. cbn [ExprSyntax.parse_when_loop]. rewrite (pprim_rt p rest Hp (kfollow_ok rest Hr)). reflexivity. Qed.

  Lemma when_roundtrip l : l <> [] -> forallb wf_prim l = true -> parse_when (join [EComma] (map print_prim l)) = Ok l.
  Proof.
    intros Hne Hwf. destruct l as [|p l]; [congruence|]. cbn [forallb] in Hwf. apply andb_true_iff in Hwf. destruct Hwf as [Hp Hl].
    unfold parse_when. rewrite join_flat, (pprim_rt p _ Hp (kfollow_ok _ (commas_follow print_prim l))). cbn [bind fst snd].
    apply (comma_loop parse_when_loop print_prim _ (fun _ _ => eq_refl) when_step l [p] _ Hl).
    pose proof (commas_length print_prim l). rewrite app_length. lia.
  Qed.

  (* ---- cycle ---- *)
  Lemma one_token_print p : one_token p = true -> wf_prim p = true -> exists t, print_prim p = [t].
  Proof.
    destruct p as [z|s|s| | | | | |l|a b]; intros Ho Hw; try discriminate; try (eexists; reflexivity).
    destruct l as [|[s|z|q] [|g l']]; try discriminate. cbn [ExprSyntax.print_prim]. rewrite <- (print_ident_path s). unfold ExprSyntax.print_ident. destruct (is_prop s); eexists; reflexivity.
  Qed.

  Lemma cycle_roundtrip g args : wf_payload (YCycle g args) = true -> parse_cycle (ExprSyntax.print_cycle is_prop g args) = Ok (YCycle g args).
  Proof.
    cbn [wf_payload]. intro Hwf. apply andb_true_iff in Hwf. destruct Hwf as [Hg Ha].
    destruct args as [|p l]; [discriminate|]. pose proof (posargs_roundtrip p l Ha) as Hpos.
    unfold parse_cycle, ExprSyntax.print_cycle. destruct g as [q|].
    - apply andb_true_iff in Hg. destruct Hg as [Ho Hq]. destruct (one_token_print q Ho Hq) as (t & Ht).
      pose proof (pprim_rt q (EColon :: join [EComma] (map print_prim (p :: l))) Hq eq_refl) as Hpp.
      rewrite Ht in Hpp |- *. cbn [app] in Hpp |- *. cbn [tl hd_tok hd_error is_colon]. rewrite Hpp. cbn [bind fst snd].
      rewrite Hpos. reflexivity.
    - cbn [app].
      (* no colon in second place: the text is not taken for one that begins with a group *)
      assert (Hc : is_colon (hd_tok (tl (join [EComma] (map print_prim (p :: l))))) = false).
      { rewrite join_flat. apply hd_tl_not_colon.
        - cbn [forallb] in Ha. apply andb_true_iff in Ha. destruct Ha as [Hp _].
          destruct (print_prim_head is_prop is_prop_not_kw p Hp) as (t & r & Ht & _). rewrite Ht. discriminate.
        - apply print_prim_no_colon.
        - destruct l; reflexivity. }
      rewrite Hc. cbn [bind fst snd]. rewrite Hpos. reflexivity.
  Qed.

  (* ---- include / render ---- *)
  (* the same test as kfollow *)
  Definition bfollow (rest : list etok) : bool := match rest with [] => true | EComma :: _ => true | _ => false end.

  (* parse_bind after `with` / `for`, stage by stage: the variable must begin like a path; an `as` alias may follow it *)
  Definition bind_start (t : option etok) : bool :=
    match t with Some (EWord _) | Some (EIdentStr _) | Some ELBr => true | _ => false end.
  Definition alias_stage (lp : bool) (v : list seg) (ts : list etok) : res (option (bool * list seg * option str) * list etok) :=
    match ts with
    | EAs :: r2 => if is_eword (hd_tok r2) then do a <- parse_ident true r2; Ok (Some (lp, v, Some (fst a)), snd a) else Err ESyntax
    | _ => Ok (Some (lp, v, None), ts)
    end.

  Lemma parse_bind_kw (lp : bool) r :
    parse_bind true ((if lp then EFor else EWith) :: r) =
    if bind_start (hd_tok r) then do v <- parse_path_e r; alias_stage lp (fst v) (snd v) else Err ESyntax.
  Proof. destruct lp; reflexivity. Qed.

  Lemma alias_stage_roundtrip lp v a rest : wf_alias a = true -> kfollow rest = true ->
    alias_stage lp v (print_alias a ++ rest) = Ok (Some (lp, v, a), rest).
  Proof.
    intros Ha Hk. destruct a as [s|]; cbn [print_alias app].
    - rewrite (word_tok_name s Ha).
      cbn [alias_stage hd_tok hd_error is_eword]. rewrite (word_ident s rest (kfollow_ok rest Hk)). reflexivity.
    - destruct (kfollow_inv rest Hk) as [->|[r0 ->]]; reflexivity.
  Qed.

  (* the optional `with v as a` / `for v as a` of include and render, written from what parse_bind returns;
     inline in print_render and print_include *)
  Definition print_bind (b : option (bool * list seg * option str)) : list etok :=
    match b with Some (lp, v, a) => (if lp then EFor else EWith) :: map of_ptok (print_path v) ++ print_alias a | None => [] end.

  (* in front of the keyword arguments or the end: the text cannot continue the name before it, and parse_bind reads the binding
     back, present or not *)
  Lemma bind_roundtrip b rest : match b with Some (_, v, a) => wf_path v && wf_alias a | None => true end = true -> kfollow rest = true ->
    follow_ok (print_bind b ++ rest) /\ parse_bind true (print_bind b ++ rest) = Ok (b, rest).
  Proof.
    intros Hb Hk. destruct b as [[[lp v] a]|]; cbn [print_bind app].
    - apply andb_true_iff in Hb. destruct Hb as [Hv Ha]. split; [destruct lp; reflexivity|]. rewrite <- app_assoc.
      destruct (wf_path_inv is_prop is_prop_not_kw v Hv) as (Hne & Hwl & t & r & Ht & Hst).
      assert (Hf : follow_ok (print_alias a ++ rest)) by (destruct a; [reflexivity|apply kfollow_ok, Hk]).
      rewrite parse_bind_kw, (path_e_roundtrip is_prop is_prop_not_kw v (print_alias a ++ rest) Hne Hwl Hf). cbn [bind fst snd].
      rewrite (alias_stage_roundtrip lp v a rest Ha Hk), Ht. destruct t; try discriminate Hst; reflexivity.
    - split; [apply kfollow_ok, Hk|]. destruct rest as [|[] r]; try discriminate Hk; reflexivity.
  Qed.

  Lemma include_roundtrip i : wf_payload (YInclude i) = true -> parse_include true (ExprSyntax.print_include is_prop i) = Ok i.
  Proof.
    destruct i as [name bnd args]. cbn [wf_payload in_name in_bind in_args]. intro Hwf.
    apply andb_true_iff in Hwf. destruct Hwf as [Hwf Hargs]. apply andb_true_iff in Hwf. destruct Hwf as [Hname Hbind].
    unfold parse_include, ExprSyntax.print_include. cbn [in_name in_bind in_args].
    assert (Hn : wf_prim name = true) by (destruct name; try discriminate; exact Hname).
    (* include always writes `with` *)
    set (b := match bnd with Some (v, a) => Some (false, v, a) | None => None end).
    replace (match bnd with Some (v, a) => EWith :: map of_ptok (print_path v) ++ print_alias a | None => [] end) with (print_bind b)
      by (destruct bnd as [[v a]|]; reflexivity).
    destruct (bind_roundtrip b (ExprSyntax.print_kwargs is_prop args)) as [Hfollow Hb];
      [destruct bnd as [[v a]|]; exact Hbind|apply kwargs_follow|].
    rewrite (pprim_rt name _ Hn Hfollow). cbn [bind fst snd].
    destruct name; try discriminate Hname; rewrite Hb; cbn [bind fst snd]; rewrite (kwargs_roundtrip args Hargs); cbn [bind];
      subst b; destruct bnd as [[v a]|]; reflexivity.
  Qed.

  Lemma render_roundtrip r : wf_payload (YRender r) = true -> parse_render true (ExprSyntax.print_render is_prop r) = Ok r.
  Proof.
    destruct r as [name bnd args]. cbn [wf_payload rd_name rd_bind rd_args]. intro Hwf.
    apply andb_true_iff in Hwf. destruct Hwf as [Hwf Hargs]. apply andb_true_iff in Hwf. destruct Hwf as [Hname Hbind].
    unfold parse_render, ExprSyntax.print_render. cbn [rd_name rd_bind rd_args]. fold (print_bind bnd).
    destruct (bind_roundtrip bnd _ Hbind (kwargs_follow args)) as [Hfollow Hb].
    destruct name as [s|s]; cbn [ExprSyntax.print_rname].
    - change [EStr s] with (print_prim (PStr s)). rewrite (pprim_rt (PStr s) _ Hname Hfollow). cbn [bind fst snd]. rewrite Hb. cbn [bind fst snd].
      rewrite (kwargs_roundtrip args Hargs). reflexivity.
    - rewrite (ident_prim s _ Hfollow). cbn [bind fst snd]. rewrite Hb. cbn [bind fst snd].
      rewrite (kwargs_roundtrip args Hargs). reflexivity.
  Qed.

  (* ================= every payload ================= *)
  (* C04 (expressions): for EVERY well-formed expression payload of a tag or output statement -- any number of filters and
     arguments, any nesting of paths and ranges, any condition tree in a ternary -- the parser reads back from the tokens
     the serialiser writes exactly the tree that was serialised *)
  Theorem payload_roundtrip y : wf_payload y = true -> parse_payload (kind_of y) (print_payload y) = Ok y.
  Proof.
    intro Hwf. destruct y as [e|n e|l|p|l|g a|i|r|s]; cbn [kind_of ExprSyntax.print_payload]; unfold parse_payload, parse_payload_gen.
    - rewrite (expr_roundtrip is_prop is_prop_not_kw e Hwf). reflexivity.
    - cbn [wf_payload] in Hwf. apply andb_true_iff in Hwf. destruct Hwf as [Hq He].
      rewrite (ident_roundtrip false n (EAssign :: _) eq_refl Hq). cbn [bind fst snd]. rewrite (expr_roundtrip is_prop is_prop_not_kw e He). reflexivity.
    - rewrite (loop_roundtrip l Hwf). reflexivity.
    - cbn [wf_payload] in Hwf. rewrite <- (app_nil_r (print_prim p)). rewrite (pprim_rt p [] Hwf I). reflexivity.
    - cbn [wf_payload] in Hwf. rewrite (when_roundtrip l); [reflexivity|destruct l; discriminate|destruct l; [discriminate|exact Hwf]].
    - apply cycle_roundtrip, Hwf.
    - rewrite (include_roundtrip i Hwf). reflexivity.
    - rewrite (render_roundtrip r Hwf). reflexivity.
    - rewrite <- (app_nil_r (print_ident s)). rewrite (ident_roundtrip true s [] I eq_refl). reflexivity.
  Qed.

  (* capture reads an identifier and requires the end of the expression *)
  Theorem capture_roundtrip s : parse_payload KCapture (print_payload (YIdent s)) = Ok (YIdent s).
  Proof.
    cbn [ExprSyntax.print_payload]. unfold parse_payload, parse_payload_gen.
    rewrite <- (app_nil_r (print_ident s)). rewrite (ident_roundtrip true s [] I eq_refl). reflexivity.
  Qed.

End Tags.

(* path.is_property of the implementation never accepts a keyword *)
Lemma expr_is_prop_not_kw s : expr_is_prop s = true -> is_kw s = false.
Proof. unfold expr_is_prop. intro H. apply andb_true_iff in H. destruct H as [_ H]. apply negb_true_iff in H. exact H. Qed.

(* a parsed payload has the kind that was asked for (capture yields an identifier payload) *)
Lemma parse_kind k ts y : parse_payload k ts = Ok y -> kind_of y = k \/ (k = KCapture /\ exists s, y = YIdent s).
Proof.
  unfold parse_payload, parse_payload_gen. intro H. destruct k.
  (* six kinds run one parser and wrap its result *)
  1, 3, 5, 7-9: (apply bind_ok in H; destruct H as (x & _ & H); injection H as <-; left; reflexivity).
  - apply bind_ok in H. destruct H as (i & _ & H). destruct (snd i) as [|[] r]; try discriminate H.
    apply bind_ok in H. destruct H as (e & _ & H). injection H as <-. left. reflexivity.
  - apply bind_ok in H. destruct H as (p & _ & H). destruct (snd p); [|discriminate H]. injection H as <-. left. reflexivity.
  - unfold parse_cycle in H. apply bind_ok in H. destruct H as (g & _ & H). apply bind_ok in H. destruct H as (a & _ & H).
    destruct a; [discriminate H|]. injection H as <-. left. reflexivity.
  - apply bind_ok in H. destruct H as (i & _ & H). destruct (snd i); [|discriminate H]. injection H as <-.
    right. split; [reflexivity|]. eexists. reflexivity.
Qed.

From Coq Require Import String.
Local Open Scope string_scope. Local Open Scope list_scope.
Definition v1 (x : string) : prim := PPath [SName (lit x)].

(* the well-formedness guard is satisfiable by a payload that uses every construct *)
Definition big_expr : expr :=
  XTern {| fe_left := PPath [SName (lit "x"); SName (lit "if"); SIdx 0; SNested [SName (lit "y"); SName (lit "a b")]];
           fe_filters := [{| f_name := lit "f"; f_args := [APos (PRange (PInt 1) (v1 "n")); AKw (lit "k") (PStr (lit "it's")); APos PTrue] |};
                          {| f_name := lit "g"; f_args := [] |}] |}
        (BOr (BAnd (BVar (lit "a")) (BNot (BVar (lit "b")))) (BCmp OEq (BVar (lit "c")) (BLit VEmpty)))
        (Some (PFloat (lit "1.5"), [{| f_name := lit "h"; f_args := [AKw (lit "j") PBlank] |}]))
        [{| f_name := lit "t"; f_args := [APos (PInt 2)] |}; {| f_name := lit "u"; f_args := [] |}].
Example big_payloads_wf :
  forallb wf_payload
    [YExpr big_expr; YAssign (lit "a b") big_expr;
     YLoop {| lp_id := lit "if"; lp_iter := PRange (PInt 1) (v1 "n"); lp_limit := Some (PInt 2); lp_offset := Some (PStr (lit "continue"));
              lp_cols := Some (v1 "c"); lp_rev := true |};
     YCase (v1 "x"); YWhen [PInt 1; PStr (lit "a"); v1 "y"]; YCycle (Some (PStr (lit "g h"))) [PInt 1; v1 "x"];
     YInclude {| in_name := PStr (lit "p"); in_bind := Some ([SName (lit "1x"); SIdx 0], Some (lit "y")); in_args := [(lit "k", v1 "v"); (lit "j", PInt 2)] |};
     YRender {| rd_name := RIdent (lit "a b"); rd_bind := Some (true, [SName (lit "xs")], Some (lit "y")); rd_args := [(lit "k", PEmpty)] |};
     YIdent (lit "limit")] = true.
Proof. vm_compute. reflexivity. Qed.

(* `offset:continue` is read as the string 'continue', which is what str() then writes *)
Example offset_continue :
  run_xprint {| xc_kind := KLoop; xc_toks := [EWord (lit "i"); EIn; EWord (lit "xs"); EOffset; EColon; EContinue; EReversed] |}
  = Some [EWord (lit "i"); EIn; EWord (lit "xs"); EOffset; EColon; EStr (lit "continue"); EReversed].
Proof. vm_compute. reflexivity. Qed.
