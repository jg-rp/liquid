(* Proofs about the caching-loader model (CachingLoader.v).  For EVERY request history the repaired mixin answers
   as a fresh non-caching loader would (run_spec: always up to the version of the source, exactly under auto-reload
   or when no source changes), and it never changes an object it has handed out (reobserve_all). *)
From LiquidVerif Require Import Prelude Lru CachingLoader.

(* ------------------------------------------------------------------ the key coding is injective *)
(* an odd number times a power of two determines both *)
Lemma odd_pow2_le a d m n :
  ((2 * m + 1) * 2 ^ a = (2 * n + 1) * 2 ^ (a + d))%N -> d = 0%N /\ m = n.
Proof.
  rewrite N.pow_add_r, (N.mul_comm (2 ^ a)), N.mul_assoc. intro H.
  apply N.mul_cancel_r in H; [|apply N.pow_nonzero; discriminate].
  destruct (N.eq_dec d 0) as [->|Hd]; [rewrite N.pow_0_r in H; lia|].
  exfalso. replace d with (N.succ (N.pred d)) in H by lia. rewrite N.pow_succ_r' in H. lia.
Qed.

Lemma odd_pow2_inj a b m n : ((2 * m + 1) * 2 ^ a = (2 * n + 1) * 2 ^ b)%N -> a = b /\ m = n.
Proof.
  intro H. destruct (N.le_ge_cases a b).
  - replace b with (a + (b - a))%N in H by lia. apply odd_pow2_le in H. lia.
  - symmetry in H. replace a with (b + (a - b))%N in H by lia. apply odd_pow2_le in H. lia.
Qed.

Lemma enc_cons c r : enc (c :: r) = ((2 * enc r + 1) * 2 ^ c)%N.
Proof. cbn [enc]. apply N.shiftl_mul_pow2. Qed.

Lemma enc_cons_pos c r : enc (c :: r) <> 0%N.
Proof.
  rewrite enc_cons. intro H. apply N.mul_eq_0 in H. destruct H as [H|H]; [lia|].
  apply N.pow_nonzero in H; [exact H|lia].
Qed.

Theorem enc_inj : forall a b, enc a = enc b -> a = b.
Proof.
  induction a as [|c r IH]; intros [|d q] H.
  - reflexivity.
  - exfalso. symmetry in H. exact (enc_cons_pos _ _ H).
  - exfalso. exact (enc_cons_pos _ _ H).
  - rewrite !enc_cons in H. apply odd_pow2_inj in H. destruct H as [-> H]. f_equal. apply IH. exact H.
Qed.

(* ------------------------------------------------------------------ equalities on keys *)
Lemma ostr_eqb_eq a b : ostr_eqb a b = true <-> a = b.
Proof.
  destruct a, b; cbn; try (split; congruence).
  rewrite str_eqb_eq. split; congruence.
Qed.

Lemma skey_eqb_eq a b : skey_eqb a b = true <-> a = b.
Proof.
  destruct a as [a1 a2], b as [b1 b2]. unfold skey_eqb. cbn [fst snd].
  rewrite andb_true_iff, str_eqb_eq, ostr_eqb_eq. split; [intros [-> ->]; reflexivity | intro E; inversion E; auto].
Qed.

Lemma skey_eqb_refl a : skey_eqb a a = true.
Proof. apply skey_eqb_eq. reflexivity. Qed.

(* ------------------------------------------------------------------ the store under edits and deletions *)
Lemma slookup_sdelete_same k st : slookup k (sdelete k st) = None.
Proof.
  induction st as [|[k' [v pr]] r IH]; cbn; [reflexivity|].
  destruct (skey_eqb k k') eqn:E; cbn; rewrite E; [reflexivity|exact IH].
Qed.

Lemma slookup_sdelete_other k k' st : k' <> k -> slookup k' (sdelete k st) = slookup k' st.
Proof.
  intro Hn. induction st as [|[k2 [v pr]] r IH]; cbn; [reflexivity|].
  destruct (skey_eqb k k2) eqn:E; cbn.
  - apply skey_eqb_eq in E. subst k2.
    destruct (skey_eqb k' k) eqn:E2; [apply skey_eqb_eq in E2; congruence|reflexivity].
  - destruct (skey_eqb k' k2); [reflexivity|exact IH].
Qed.

(* the version counter of an entry, present or not *)
Fixpoint sversion (k : skey) (st : store) : option N :=
  match st with
  | [] => None
  | (k', (v, _)) :: r => if skey_eqb k k' then Some v else sversion k r
  end.

Lemma sversion_sdelete k k' st : sversion k' (sdelete k st) = sversion k' st.
Proof.
  induction st as [|[k2 [v pr]] r IH]; cbn; [reflexivity|].
  destruct (skey_eqb k k2) eqn:E; cbn; destruct (skey_eqb k' k2); auto.
Qed.

(* writing a text makes the entry present with a version never used before, also after a deletion *)
Lemma slookup_sedit_same k st : slookup k (sedit k st) = option_map N.succ (sversion k st).
Proof.
  induction st as [|[k' [v pr]] r IH]; cbn; [reflexivity|].
  destruct (skey_eqb k k') eqn:E; cbn; rewrite E; [reflexivity|exact IH].
Qed.

Lemma slookup_sedit_other k k' st : k' <> k -> slookup k' (sedit k st) = slookup k' st.
Proof.
  intro Hn. induction st as [|[k2 [v pr]] r IH]; cbn; [reflexivity|].
  destruct (skey_eqb k k2) eqn:E; cbn.
  - apply skey_eqb_eq in E. subst k2.
    destruct (skey_eqb k' k) eqn:E2; [apply skey_eqb_eq in E2; congruence|reflexivity].
  - destruct (skey_eqb k' k2); [reflexivity|exact IH].
Qed.

Lemma slookup_sversion k st v : slookup k st = Some v -> sversion k st = Some v.
Proof.
  induction st as [|[k' [v' pr]] r IH]; cbn; [discriminate|].
  destruct (skey_eqb k k'); [destruct pr; [auto|discriminate]|exact IH].
Qed.

(* ------------------------------------------------------------------ LRU facts in terms of membership *)
Lemma lookup_In k l v : lookup k l = Some v -> In (k, v) l.
Proof.
  induction l as [|[k' v'] l IH]; cbn; [discriminate|].
  destruct (N.eqb_spec k k'); intro H.
  - inversion H; subst. left; reflexivity.
  - right; auto.
Qed.

Lemma remove_key_In k l x : In x (remove_key k l) -> In x l.
Proof.
  induction l as [|[k' v'] l IH]; cbn; [tauto|].
  destruct (N.eqb k k'); cbn; [intro H; right; exact (IH H)|intros [H|H]; [left; exact H|right; exact (IH H)]].
Qed.

Lemma do_get_some c k c' v :
  do_get c k = (c', Some v) -> In (k, v) (items c) /\ (forall x, In x (items c') -> In x (items c)).
Proof.
  unfold do_get. destruct (lookup k (items c)) eqn:E; intro H; inversion H; subst; clear H.
  split; [apply lookup_In; exact E|].
  cbn. intros x Hx. apply in_app_or in Hx. destruct Hx as [Hx|[<-|[]]].
  - exact (remove_key_In _ _ _ Hx).
  - apply lookup_In; exact E.
Qed.

Lemma do_get_none c k c' : do_get c k = (c', None) -> c' = c.
Proof.
  unfold do_get. destruct (lookup k (items c)); intro H; inversion H; reflexivity.
Qed.

Lemma do_set_In c k v x : In x (items (do_set c k v)) -> x = (k, v) \/ In x (items c).
Proof.
  unfold do_set. destruct (lookup k (items c)).
  - cbn. intro H. apply in_app_or in H. destruct H as [H|[<-|[]]]; [right; exact (remove_key_In _ _ _ H)|left; reflexivity].
  - destruct (Nat.leb (cap c) (length (items c))); cbn; intro H; apply in_app_or in H;
      destruct H as [H|[<-|[]]]; auto. destruct (items c); [destruct H|right; right; exact H].
Qed.

(* ------------------------------------------------------------------ the object heap *)
Definition hbound (h : heap) : Prop := forall id t, In (id, t) h -> (0 <= id < Z.of_nat (length h))%Z.

Lemma hget_In id h t : hget id h = Some t -> In (id, t) h.
Proof.
  induction h as [|[i t'] h IH]; cbn; [discriminate|].
  destruct (Z.eqb_spec id i); intro H.
  - inversion H; subst. left; reflexivity.
  - right; auto.
Qed.

Lemma hget_fresh h : hbound h -> hget (hfresh h) h = None.
Proof.
  intro Hb. destruct (hget (hfresh h) h) eqn:E; [|reflexivity].
  apply hget_In in E. apply Hb in E. unfold hfresh in E. lia.
Qed.

(* a later heap that still says the same about every object of an earlier one *)
Definition heap_ext (h h' : heap) : Prop :=
  hbound h' /\ forall id t, hget id h = Some t -> hget id h' = Some t.

Lemma heap_ext_refl h : hbound h -> heap_ext h h.
Proof. intro H. split; auto. Qed.

Lemma heap_ext_trans h1 h2 h3 : heap_ext h1 h2 -> heap_ext h2 h3 -> heap_ext h1 h3.
Proof. intros [_ A] [B C]. split; auto. Qed.

Lemma heap_ext_fresh h t : hbound h -> heap_ext h ((hfresh h, t) :: h).
Proof.
  intro Hb. split.
  - intros id t' [E|H]; [inversion E; subst; unfold hfresh|apply Hb in H]; cbn [length]; lia.
  - intros id t' H. cbn. destruct (Z.eqb_spec id (hfresh h)) as [->|]; [|exact H].
    rewrite hget_fresh in H by exact Hb. discriminate.
Qed.

Lemma heap_ext_same h id t : hbound h -> hget id h = Some t -> heap_ext h ((id, t) :: h).
Proof.
  intros Hb Hg. split.
  - intros id' t' [E|H]; [inversion E; subst; apply hget_In, Hb in Hg|apply Hb in H]; cbn [length]; lia.
  - intros id' t' H. cbn. destruct (Z.eqb_spec id' id) as [->|]; [congruence|exact H].
Qed.

(* ------------------------------------------------------------------ the repaired cache check, its outcomes named *)
(* a (re)load: a template loaded is a new object, stored under the key; a failure leaves the objects alone *)
Definition reloaded (s : state) (cache1 : cache) (k : N) (r : res tmpl) : state * response :=
  match r with
  | Ok t => ({| st_cache := do_set cache1 k (hfresh (st_heap s)); st_heap := (hfresh (st_heap s), t) :: st_heap s;
                st_store := st_store s |}, RT t)
  | Err e => ({| st_cache := cache1; st_heap := st_heap s; st_store := st_store s |}, RE e)
  | OutOfFuel => (s, RInternal)
  end.

(* a hit: the cached object as it is, or a copy bound to the globals of this request *)
Definition served (s : state) (cache1 : cache) (id : Z) (cached : tmpl) (gl : N * N) : state * response :=
  if same_globals (t_globals cached) gl
  then ({| st_cache := cache1; st_heap := (id, cached) :: st_heap s; st_store := st_store s |}, RT cached)
  else ({| st_cache := cache1; st_heap := (hfresh (st_heap s), with_globals cached gl) :: st_heap s;
           st_store := st_store s |}, RT (with_globals cached gl)).

Lemma same_globals_eq a b : same_globals a b = true -> a = b.
Proof.
  destruct a, b. unfold same_globals. cbn. intro H. apply andb_true_iff in H. destruct H as [H1 H2].
  apply N.eqb_eq in H1, H2. congruence.
Qed.

(* either copy of the check; [utd] is is_up_to_date or is_up_to_date_async *)
Definition checked (utd : config -> store -> tmpl -> res bool) (c : config) (s : state) (key : str) (gl : N * N)
           (load : unit -> res tmpl) : state * response :=
  match do_get (st_cache s) (enc key) with
  | (cache1, None) => reloaded s cache1 (enc key) (load tt)
  | (cache1, Some id) =>
      match hget id (st_heap s) with
      | None => (s, RInternal)
      | Some cached =>
          match (if auto_reload c then utd c (st_store s) cached else Ok true) with
          | Ok true => served s cache1 id cached gl
          | Ok false => reloaded s cache1 (enc key) (load tt)
          | Err e => ({| st_cache := cache1; st_heap := st_heap s; st_store := st_store s |}, RE e)
          | OutOfFuel => (s, RInternal)
          end
      end
  end.

Lemma check_cache_fixed c s key gl load :
  check_cache fixed c s key gl load = checked up_to_date_sync c s key gl load.
Proof. reflexivity. Qed.

Lemma check_cache_async_fixed c s key gl load :
  check_cache_async fixed c s key gl load = checked up_to_date c s key gl load.
Proof. reflexivity. Qed.

(* only the result of the load thunk matters *)
Lemma cca_ext v c s key gl (l1 l2 : unit -> res tmpl) :
  l1 tt = l2 tt -> check_cache_async v c s key gl l1 = check_cache_async v c s key gl l2.
Proof. intro H. unfold check_cache_async. rewrite H. reflexivity. Qed.

Lemma cc_ext v c s key gl (l1 l2 : unit -> res tmpl) :
  l1 tt = l2 tt -> check_cache v c s key gl l1 = check_cache v c s key gl l2.
Proof. intro H. unfold check_cache. rewrite H. reflexivity. Qed.

(* ------------------------------------------------------------------ the two copies agree *)
(* _check_cache and _check_cache_async differ only in is_up_to_date vs is_up_to_date_async: they agree
   whenever the cached template's uptodate need not be awaited *)
Lemma check_cache_sync_async v c s key gl load :
  (forall cache1 id t, do_get (st_cache s) (enc key) = (cache1, Some id) ->
                       hget id (st_heap s) = Some t -> t_awaitable t = false) ->
  check_cache v c s key gl load = check_cache_async v c s key gl load.
Proof.
  intro Haw. unfold check_cache, check_cache_async.
  destruct (do_get (st_cache s) (enc key)) as [cache1 [id|]] eqn:E; [|reflexivity].
  destruct (hget id (st_heap s)) as [cached|] eqn:Hg; [|reflexivity].
  specialize (Haw _ _ _ eq_refl Hg).
  unfold up_to_date_sync, up_to_date. rewrite Haw. reflexivity.
Qed.

(* ------------------------------------------------------------------ the invariant *)
Section Transparent.
  Variable c : config.
  Variable P : get -> Prop.           (* the requests that may occur *)

  Local Notation ckey := (CachingLoader.ckey c).
  Local Notation srckey := (CachingLoader.srckey c).

  (* two admissible requests with the same cache key read the same source *)
  Definition keys_ok : Prop := forall g1 g2, P g1 -> P g2 -> ckey g1 = ckey g2 -> srckey g1 = srckey g2.

  Hypothesis Hok : keys_ok.
  (* the wrapped loader as repaired: uptodate is a plain callable, and answers False for a source that is gone *)
  Hypothesis Haw : awaitable_uptodate c = false.
  Hypothesis Hmr : missing_raises c = false.

  (* what a non-caching loader returns for request g when the entry has version ver *)
  Definition fresh_tmpl (g : get) (ver : N) : tmpl :=
    {| t_name := basename (g_name g); t_src := srckey g; t_ver := ver; t_awaitable := false;
       t_globals := make_globals c (g_globals g) |}.

  Definition fresh_load (st : store) (g : get) : res tmpl :=
    match slookup (srckey g) st with None => Err ENotFound | Some ver => Ok (fresh_tmpl g ver) end.

  Lemma base_load_fixed st m g :
    base_load fixed c st m (g_name g) (g_kw g) (g_ctx g) (make_globals c (g_globals g)) = fresh_load st g.
  Proof.
    unfold base_load, fresh_load, fresh_tmpl, CachingLoader.srckey.
    destruct (slookup _ st); [|reflexivity]. destruct m; cbn; rewrite ?Haw; reflexivity.
  Qed.

  Lemma ref_get_fixed st g :
    ref_get c st g = match slookup (srckey g) st with None => RE ENotFound | Some ver => RT (fresh_tmpl g ver) end.
  Proof. unfold ref_get. rewrite base_load_fixed. unfold fresh_load. destruct (slookup _ st); reflexivity. Qed.

  (* every cache entry (k |-> object) was made for an admissible request g0 with that cache key, from g0's
     source entry, under g0's name; its uptodate is a plain callable *)
  Definition good (k : N) (t : tmpl) : Prop :=
    exists g0, P g0 /\ k = enc (ckey g0) /\ t_src t = srckey g0 /\ t_name t = basename (g_name g0)
               /\ t_awaitable t = false.

  Definition Inv (s : state) : Prop :=
    hbound (st_heap s) /\
    forall k id, In (k, id) (items (st_cache s)) ->
                 exists t, hget id (st_heap s) = Some t /\ good k t.

  (* ... and, as long as no source was edited or deleted, carries the current version *)
  Definition Current (s : state) : Prop :=
    forall k id t, In (k, id) (items (st_cache s)) -> hget id (st_heap s) = Some t ->
                   slookup (t_src t) (st_store s) = Some (t_ver t).

  Lemma Inv_init st : Inv (init c st).
  Proof. split; [intros id t []|intros k id []]. Qed.

  Lemma Current_init st : Current (init c st).
  Proof. intros k id t []. Qed.

  Lemma good_with_globals k t gl : good k t -> good k (with_globals t gl).
  Proof. intros (g0 & H). exists g0. exact H. Qed.

  (* the uptodate check answers (it does not raise) *)
  Lemma up_to_date_answers st t : exists b, up_to_date c st t = Ok b.
  Proof.
    unfold up_to_date, uptodate_call. rewrite Hmr. destruct (negb (detects c)); [eexists; reflexivity|].
    destruct (slookup (t_src t) st); eexists; reflexivity.
  Qed.

  (* under the invariant get_template and get_template_async are the same check, with the non-caching load
     written as fresh_load *)
  Lemma step_get_eq s g :
    Inv s ->
    step fixed c s (Get g) =
    checked up_to_date c s (ckey g) (make_globals c (g_globals g)) (fun _ => fresh_load (st_store s) g).
  Proof.
    rewrite <- check_cache_async_fixed.
    intros [Hb Hc]. cbn [step]. destruct (g_mode g) eqn:M.
    - unfold mixin_load. fold (ckey g).
      rewrite check_cache_sync_async.
      + apply cca_ext. apply base_load_fixed.
      + intros cache1 id t E Hg. apply do_get_some in E. destruct E as [E _].
        destruct (Hc _ _ E) as (t' & Ht' & g0 & _ & _ & _ & _ & A). congruence.
    - unfold mixin_load_async. cbn [fixed v_async_swap]. fold (ckey g).
      apply cca_ext. apply base_load_fixed.
  Qed.

  (* objects were only added; the cache may have been reordered *)
  Lemma subcache_keeps_inv s cache1 h' :
    Inv s -> (forall x, In x (items cache1) -> In x (items (st_cache s))) -> heap_ext (st_heap s) h' ->
    let s' := {| st_cache := cache1; st_heap := h'; st_store := st_store s |} in
    Inv s' /\ (Current s -> Current s').
  Proof.
    intros [Hb Hc] Hsub [Hb' Hext] s'. split; [split; [exact Hb'|]|].
    - intros k id Hin. apply Hsub in Hin. destruct (Hc _ _ Hin) as (t & Ht & Hg). exists t. split; auto.
    - intros HF k id t Hin Hg. apply Hsub in Hin. destruct (Hc _ _ Hin) as (t0 & Ht0 & _).
      cbn in Hg. rewrite (Hext _ _ Ht0) in Hg. inversion Hg; subst. exact (HF _ _ _ Hin Ht0).
  Qed.

  (* a (re)load stores a new object under the key, beside what was there *)
  Lemma load_keeps_inv s g cache1 ver :
    Inv s -> P g ->
    (forall x, In x (items cache1) -> In x (items (st_cache s))) ->
    slookup (srckey g) (st_store s) = Some ver ->
    let s' := {| st_cache := do_set cache1 (enc (ckey g)) (hfresh (st_heap s));
                 st_heap := (hfresh (st_heap s), fresh_tmpl g ver) :: st_heap s;
                 st_store := st_store s |} in
    Inv s' /\ (Current s -> Current s').
  Proof.
    intros HI HP Hsub Hs s'. pose proof HI as [Hb _].
    destruct (subcache_keeps_inv s cache1 ((hfresh (st_heap s), fresh_tmpl g ver) :: st_heap s) HI Hsub (heap_ext_fresh _ _ Hb))
      as [[Hb' Hc'] HF'].
    split; [split; [exact Hb'|]|].
    - intros k id Hin. cbn in Hin. apply do_set_In in Hin. destruct Hin as [E|Hin]; [|exact (Hc' _ _ Hin)].
      inversion E; subst. exists (fresh_tmpl g ver). split; [cbn; rewrite Z.eqb_refl; reflexivity|].
      exists g. cbn. repeat split; auto.
    - intros HF k id t Hin Hg. cbn in Hin. apply do_set_In in Hin. destruct Hin as [E|Hin]; [|exact (HF' HF _ _ _ Hin Hg)].
      inversion E; subst. cbn in Hg. rewrite Z.eqb_refl in Hg. inversion Hg; subst. exact Hs.
  Qed.

  Definition all_gets (rs : list request) : Prop := forall g, In (Get g) rs -> P g.

  (* a history in which no source changes: neither edits nor deletions *)
  Fixpoint no_edits (rs : list request) : Prop :=
    match rs with [] => True | Get _ :: r => no_edits r | _ => False end.

  (* what holds of every response in every history, whatever auto_reload is and whatever was edited or
     deleted: a template returned is the one a non-caching loader builds for THIS request (name, source
     entry, globals) from some version of that entry; an error is returned only where the non-caching
     loader returns the same error *)
  Definition resp_ok (rq : request) (refr r : response) : Prop :=
    match rq with
    | Get g => match r with
               | RT x => exists ver, x = fresh_tmpl g ver
               | RE e => refr = RE e
               | _ => False
               end
    | _ => r = RDone
    end.

  (* ... of every response of a history, the reference reading the store as the edits so far have left it *)
  Fixpoint all_ok (st : store) (rs : list request) (out : list response) : Prop :=
    match rs, out with
    | [], [] => True
    | rq :: rs', r :: out' =>
        resp_ok rq (match rq with Get g => ref_get c st g | _ => RDone end) r /\
        all_ok (match rq with
                | Get _ => st
                | Edit n ns => sedit (n, ns) st
                | Delete n ns => sdelete (n, ns) st
                end) rs' out'
    | _, _ => False
    end.

  (* when the answer is exactly the non-caching one: under auto-reload with a working uptodate check, and
     whenever every cached template is current *)
  Definition answers_exactly (s : state) : Prop := (auto_reload c = true /\ detects c = true) \/ Current s.

  (* One request, the state and response after it.  A template returned is what a non-caching loader returns for this
     request, except possibly for the version of the source; an error is returned only when the source is not there. *)
  Definition get_ok (s : state) (g : get) (x : state * response) : Prop :=
    Inv (fst x) /\ st_store (fst x) = st_store s /\ (Current s -> Current (fst x)) /\
    resp_ok (Get g) (ref_get c (st_store s) g) (snd x) /\ (answers_exactly s -> snd x = ref_get c (st_store s) g).

  (* a (re)load answers as the non-caching loader does *)
  Lemma reloaded_ok s g cache1 :
    Inv s -> P g -> (forall x, In x (items cache1) -> In x (items (st_cache s))) ->
    get_ok s g (reloaded s cache1 (enc (ckey g)) (fresh_load (st_store s) g)).
  Proof.
    intros HI HP Hsub. unfold get_ok. rewrite ref_get_fixed. unfold fresh_load.
    destruct (slookup (srckey g) (st_store s)) as [ver|] eqn:Hver; cbn [reloaded fst snd resp_ok].
    - destruct (load_keeps_inv s g cache1 ver HI HP Hsub Hver) as [HI' HF'].
      split; [exact HI'|]. split; [reflexivity|]. split; [exact HF'|]. split; [eexists|]; reflexivity.
    - destruct (subcache_keeps_inv s cache1 (st_heap s) HI Hsub (heap_ext_refl _ (proj1 HI))) as [HI' HF'].
      split; [exact HI'|]. split; [reflexivity|]. split; [exact HF'|]. split; reflexivity.
  Qed.

  (* a hit answers with the version the cached template was read from *)
  Lemma served_ok s g cache1 id cached :
    Inv s -> (forall x, In x (items cache1) -> In x (items (st_cache s))) -> hget id (st_heap s) = Some cached ->
    with_globals cached (make_globals c (g_globals g)) = fresh_tmpl g (t_ver cached) ->
    (answers_exactly s -> slookup (srckey g) (st_store s) = Some (t_ver cached)) ->
    get_ok s g (served s cache1 id cached (make_globals c (g_globals g))).
  Proof.
    intros HI Hsub Hget Hc' Hcur. pose proof HI as [Hb _]. unfold get_ok.
    assert (Hresp : forall x, x = fresh_tmpl g (t_ver cached) ->
              resp_ok (Get g) (ref_get c (st_store s) g) (RT x) /\ (answers_exactly s -> RT x = ref_get c (st_store s) g)).
    { intros x ->. split; [eexists; reflexivity|]. intro He. rewrite ref_get_fixed, (Hcur He). reflexivity. }
    unfold served. destruct (same_globals (t_globals cached) (make_globals c (g_globals g))) eqn:Hsame; cbn [fst snd].
    - apply same_globals_eq in Hsame.
      destruct (subcache_keeps_inv s cache1 ((id, cached) :: st_heap s) HI Hsub (heap_ext_same _ _ _ Hb Hget)) as [HI' HF'].
      split; [exact HI'|]. split; [reflexivity|]. split; [exact HF'|]. apply Hresp.
      rewrite <- Hc'. unfold with_globals. rewrite <- Hsame. destruct cached; reflexivity.
    - destruct (subcache_keeps_inv s cache1 ((hfresh (st_heap s), with_globals cached (make_globals c (g_globals g))) :: st_heap s)
                          HI Hsub (heap_ext_fresh _ _ Hb)) as [HI' HF'].
      split; [exact HI'|]. split; [reflexivity|]. split; [exact HF'|]. apply Hresp, Hc'.
  Qed.

  Lemma get_step s g : Inv s -> P g -> get_ok s g (step fixed c s (Get g)).
  Proof.
    intros HI HP. rewrite step_get_eq by exact HI. pose proof HI as [Hb Hc]. unfold checked.
    destruct (do_get (st_cache s) (enc (ckey g))) as [cache1 [id|]] eqn:E.
    - (* the key is cached: by an admissible request g0 with the same key, hence the same source and name *)
      apply do_get_some in E. destruct E as [Ein Hsub].
      destruct (Hc _ _ Ein) as (cached & Hget & g0 & HP0 & Hk & Hsrc & Hname & Hawt).
      rewrite Hget.
      apply enc_inj in Hk. pose proof (Hok _ _ HP HP0 Hk) as Hs.
      assert (Hn : g_name g = g_name g0) by (apply (f_equal fst) in Hs; exact Hs).
      rewrite <- Hs in Hsrc. rewrite <- Hn in Hname.
      assert (Hup : exists b, (if auto_reload c then up_to_date c (st_store s) cached else Ok true) = Ok b).
      { destruct (auto_reload c); [apply up_to_date_answers|eexists; reflexivity]. }
      destruct Hup as [b Hup]. rewrite Hup. destruct b; [|apply reloaded_ok; assumption].
      apply served_ok; try assumption.
      + unfold with_globals, fresh_tmpl. rewrite Hname, Hsrc, Hawt. reflexivity.
      + (* the cached version is the current one: the uptodate check has just said so, or every entry is current *)
        intros [[Har Hdet]|HF].
        * rewrite Har in Hup. unfold up_to_date, uptodate_call in Hup.
          rewrite Hdet, Hmr, Hsrc in Hup. cbn in Hup.
          destruct (slookup (srckey g) (st_store s)) as [v|]; [|discriminate].
          inversion Hup as [Hv]. apply N.eqb_eq in Hv. congruence.
        * specialize (HF _ _ _ Ein Hget). rewrite Hsrc in HF. exact HF.
    - (* KeyError: load and store *)
      apply do_get_none in E. subst cache1. apply reloaded_ok; trivial.
  Qed.

  (* Every history.  Each response is acceptable; and the responses are exactly the non-caching loader's under
     auto-reload with a working uptodate check, or from a current cache when no source changes.  An edit or a
     deletion touches neither the cache nor the objects, so the invariant carries over as it is. *)
  Theorem run_spec rs : forall s,
    Inv s -> all_gets rs ->
    all_ok (st_store s) rs (run fixed c s rs) /\
    ((auto_reload c = true /\ detects c = true) \/ (Current s /\ no_edits rs) ->
     run fixed c s rs = ref_run c (st_store s) rs).
  Proof.
    induction rs as [|r rs IH]; intros s HI HA; [split; [exact I|reflexivity]|].
    assert (HA' : all_gets rs) by (intros g Hg; apply HA; right; exact Hg).
    destruct r as [g|name ns|name ns]; cbn [run ref_run all_ok].
    - destruct (get_step s g HI (HA g (or_introl eq_refl))) as (HI' & Hst & HF & Hr & Hex).
      destruct (step fixed c s (Get g)) as [s' r]. cbn [fst snd] in *.
      destruct (IH s' HI' HA') as [IH1 IH2]. rewrite Hst in IH1, IH2. split; [split; assumption|].
      intro E. f_equal.
      + apply Hex. destruct E as [E|[E _]]; [left|right]; exact E.
      + apply IH2. destruct E as [E|[E1 E2]]; [left; exact E|right; split; [apply HF, E1|exact E2]].
    - destruct (IH (fst (step fixed c s (Edit name ns))) HI HA') as [IH1 IH2]. cbn [step fst st_store] in *.
      split; [split; [reflexivity|exact IH1]|]. intros [E|[_ []]]. f_equal. apply IH2. left; exact E.
    - destruct (IH (fst (step fixed c s (Delete name ns))) HI HA') as [IH1 IH2]. cbn [step fst st_store] in *.
      split; [split; [reflexivity|exact IH1]|]. intros [E|[_ []]]. f_equal. apply IH2. left; exact E.
  Qed.

  Lemma all_ok_no_internal rs : forall st out, all_ok st rs out -> ~ In RInternal out.
  Proof.
    induction rs as [|rq rs IH]; intros st [|r out] H; cbn in H; try tauto.
    destruct H as [H1 H2]. intros [->|Hin]; [|exact (IH _ _ H2 Hin)].
    destruct rq; cbn in H1; [exact H1|discriminate|discriminate].
  Qed.
End Transparent.

(* ------------------------------------------------------------------ the hypothesis on cache keys *)
(* keys_ok for the requests of a history (executable: keys_injective_b); the next three facts: C23_side_condition_* *)
Definition keys_injective (c : config) (rs : list request) : Prop :=
  forall g1 g2, In (Get g1) rs -> In (Get g2) rs -> ckey c g1 = ckey c g2 -> srckey c g1 = srckey c g2.

Lemma gets_of_In g rs : In (Get g) rs <-> In g (gets_of rs).
Proof.
  induction rs as [|[g'|n ns|n ns] rs IH]; cbn; [tauto| | |].
  - rewrite <- IH. split; intros [H|H]; auto; left; congruence.
  - rewrite <- IH. split; [intros [H|H]; [discriminate|exact H]|auto].
  - rewrite <- IH. split; [intros [H|H]; [discriminate|exact H]|auto].
Qed.

Definition no_slash (s : str) : Prop := ~ In slash s.

(* a key ns/name determines both parts when namespaces contain no '/' *)
Lemma split_first_slash : forall a b n m,
  no_slash a -> no_slash b -> a ++ [slash] ++ n = b ++ [slash] ++ m -> a = b /\ n = m.
Proof.
  induction a as [|x a IH]; intros [|y b] n m Ha Hb E; cbn in E.
  - inversion E; auto.
  - inversion E; subst. exfalso. apply Hb. left; reflexivity.
  - inversion E; subst. exfalso. apply Ha. left; reflexivity.
  - inversion E; subst. destruct (IH b n m) as [-> ->]; auto.
    + intro H. apply Ha. right; exact H.
    + intro H. apply Hb. right; exact H.
Qed.

(* ------------------------------------------------------------------ every history from an empty cache *)
(* the admissible requests are those of the history itself *)
Theorem run_spec_init c st rs :
  awaitable_uptodate c = false -> missing_raises c = false -> keys_injective c rs ->
  all_ok c st rs (run fixed c (init c st) rs) /\
  ((auto_reload c = true /\ detects c = true) \/ no_edits rs -> run fixed c (init c st) rs = ref_run c st rs).
Proof.
  intros Haw Hmr Hk.
  destruct (run_spec c (fun g => In (Get g) rs) Hk Haw Hmr rs (init c st) (Inv_init c _ st) (fun g H => H)) as [H1 H2].
  split; [exact H1|]. intros [E|E]; apply H2; [left; exact E|right; split; [apply Current_init|exact E]].
Qed.

(* ------------------------------------------------------------------ earlier responses are not affected by later requests *)
(* No hypothesis on keys, configuration or store is needed: the repaired mixin only ever ADDS objects.
   [adds_only s (s', o)]: the heap after the step still says the same about every earlier object, and a template
   returned is the newest object of that heap. *)
Definition adds_only (s : state) (r : state * response) : Prop :=
  heap_ext (st_heap s) (st_heap (fst r)) /\
  (forall t, snd r = RT t -> exists id, handle (fst r) (snd r) = Some id /\ hget id (st_heap (fst r)) = Some t).

(* the outcomes of a step: the heap is unchanged and no template is returned; or the template returned is bound on
   top of the heap - a new object (heap_ext_fresh), or an old one as it is, bound once more (heap_ext_same) *)
Lemma adds_only_kept s s' r :
  hbound (st_heap s) -> st_heap s' = st_heap s -> (forall t, r <> RT t) -> adds_only s (s', r).
Proof.
  intros Hb E Hr. split; cbn [fst snd]; [rewrite E; apply heap_ext_refl, Hb|]. intros t Ht. destruct (Hr t Ht).
Qed.

Lemma adds_only_bound s s' id t :
  heap_ext (st_heap s) ((id, t) :: st_heap s) -> st_heap s' = (id, t) :: st_heap s -> adds_only s (s', RT t).
Proof.
  intros Hext E. split; cbn [fst snd handle]; rewrite E; [exact Hext|].
  intros t' [= <-]. eexists. split; [reflexivity|]. cbn [hget]. rewrite Z.eqb_refl. reflexivity.
Qed.

Lemma reloaded_adds_only s cache1 k r : hbound (st_heap s) -> adds_only s (reloaded s cache1 k r).
Proof.
  intro Hb. destruct r; [|now apply adds_only_kept|now apply adds_only_kept].
  apply (adds_only_bound s _ (hfresh (st_heap s))); [apply heap_ext_fresh, Hb|reflexivity].
Qed.

Lemma served_adds_only s cache1 id cached gl :
  hbound (st_heap s) -> hget id (st_heap s) = Some cached -> adds_only s (served s cache1 id cached gl).
Proof.
  intros Hb Hg. unfold served. destruct (same_globals _ _).
  - apply (adds_only_bound s _ id); [apply heap_ext_same; assumption|reflexivity].
  - apply (adds_only_bound s _ (hfresh (st_heap s))); [apply heap_ext_fresh, Hb|reflexivity].
Qed.

Lemma checked_adds_only utd c s key gl load : hbound (st_heap s) -> adds_only s (checked utd c s key gl load).
Proof.
  intro Hb. unfold checked.
  destruct (do_get (st_cache s) (enc key)) as [cache1 [id|]]; [|apply reloaded_adds_only, Hb].
  destruct (hget id (st_heap s)) as [cached|] eqn:Hg; [|now apply adds_only_kept].
  destruct (if auto_reload c then _ else Ok true) as [[|]|e|].
  - apply served_adds_only; assumption.
  - apply reloaded_adds_only, Hb.
  - now apply adds_only_kept.
  - now apply adds_only_kept.
Qed.

Lemma step_adds_only c s r : hbound (st_heap s) -> adds_only s (step fixed c s r).
Proof.
  intros Hb. destruct r as [g|n ns|n ns]; cbn [step]; [|now apply adds_only_kept|now apply adds_only_kept].
  destruct (g_mode g).
  - unfold mixin_load. rewrite check_cache_fixed. apply checked_adds_only, Hb.
  - unfold mixin_load_async. cbn [fixed v_async_swap]. rewrite check_cache_async_fixed. apply checked_adds_only, Hb.
Qed.

Lemma final_ext c rs : forall s, hbound (st_heap s) -> heap_ext (st_heap s) (st_heap (final fixed c s rs)).
Proof.
  induction rs as [|r rs IH]; intros s Hb; cbn [final]; [apply heap_ext_refl; exact Hb|].
  destruct (step_adds_only c s r Hb) as [Hext _].
  eapply heap_ext_trans; [exact Hext|]. apply IH. exact (proj1 Hext).
Qed.

(* every response, read again from a heap that extends the final one, is the response as it was returned *)
Lemma reobserve_all c rs : forall s hfin,
  hbound (st_heap s) -> heap_ext (st_heap (final fixed c s rs)) hfin ->
  map (reobserve hfin) (run_h fixed c s rs) = run fixed c s rs.
Proof.
  induction rs as [|r rs IH]; intros s hfin Hb Hfin; [reflexivity|].
  cbn [run_h run final] in *. destruct (step_adds_only c s r Hb) as [Hext Hobj].
  destruct (step fixed c s r) as [s' o]. cbn [fst snd map] in *.
  f_equal; [|apply IH; [exact (proj1 Hext)|exact Hfin]].
  destruct o as [t| | |]; try reflexivity.
  destruct (Hobj t eq_refl) as (id & Hh & Hg). rewrite Hh. cbn [reobserve].
  pose proof (final_ext c rs s' (proj1 Hext)) as [_ Hf]. destruct Hfin as [_ Hfin].
  rewrite (Hfin _ _ (Hf _ _ Hg)). reflexivity.
Qed.
