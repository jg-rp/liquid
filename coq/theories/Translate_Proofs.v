(* C26 -- proofs about the model of message formatting (Translate.v): placeholder substitution in the filters,
   the tag's percent doubling and printf formatting, and its whitespace normalisation read through the
   decomposition of a block into words and gaps. *)
From LiquidVerif Require Import Prelude PyPrims Translate.
From Coq Require Import ZifyBool.

(* a list that does not start with an element satisfying p; said of the reversal: that does not end with one *)
Section HeadNot.
  Context {A : Type} (p : A -> bool).

  Definition head_not (l : list A) : Prop := match l with [] => True | c :: _ => p c = false end.

  Lemma head_not_app x y : x <> [] -> forallb (fun c => negb (p c)) x = true -> head_not (x ++ y).
  Proof.
    destruct x as [|c x]; [contradiction|]. intros _ H. cbn in *. apply andb_true_iff in H. destruct H as [H _].
    apply negb_true_iff in H. exact H.
  Qed.

  Lemma last_not_forallb x : x <> [] -> forallb (fun c => negb (p c)) x = true -> head_not (rev x).
  Proof.
    intros Hne H. rewrite <- (app_nil_r (rev x)). apply head_not_app.
    - intro E. apply Hne. rewrite <- (rev_involutive x), E. reflexivity.
    - rewrite forallb_rev. exact H.
  Qed.

  Lemma last_not_app a b : b <> [] -> head_not (rev b) -> head_not (rev (a ++ b)).
  Proof.
    intros Hne H. rewrite rev_app_distr. destruct (rev b) as [|c m] eqn:E; [|exact H].
    exfalso. apply Hne. rewrite <- (rev_involutive b), E. reflexivity.
  Qed.
End HeadNot.

Definition name_ok (n : str) : Prop := n <> [] /\ forallb is_word n = true.

Lemma is_word_not_special c : is_word c = true -> c <> c_pct /\ c <> c_rpar /\ c <> c_lpar.
Proof. unfold is_word, c_pct, c_rpar, c_lpar. intro H. lia. Qed.

Lemma take_word_name n x : forallb is_word n = true -> head_not is_word x -> take_word (n ++ x) = (n, x).
Proof.
  intros Hn Hx. induction n as [|c n IH]; cbn [app].
  - destruct x as [|c x]; cbn [take_word]; [reflexivity|]. rewrite Hx. reflexivity.
  - cbn [forallb] in Hn. apply andb_true_iff in Hn. destruct Hn as [Hc Hn].
    cbn [take_word]. rewrite Hc, (IH Hn). reflexivity.
Qed.

Lemma parse_ph_placeholder n rest : name_ok n ->
  parse_ph (c_lpar :: n ++ c_rpar :: c_s :: rest) = Some (n, rest).
Proof.
  intros [Hne Hw]. unfold parse_ph. rewrite N.eqb_refl.
  rewrite (take_word_name n (c_rpar :: c_s :: rest) Hw) by reflexivity.
  destruct n as [|c n]; [contradiction|]. rewrite !N.eqb_refl. reflexivity.
Qed.

Lemma ph_split n (x : str) : c_lpar :: n ++ c_rpar :: c_s :: x = (c_lpar :: n ++ [c_rpar; c_s]) ++ x.
Proof. cbn [app]. rewrite <- app_assoc. reflexivity. Qed.

Lemma ph_len (n : str) : length (c_lpar :: n ++ [c_rpar; c_s]) = length n + 3.
Proof. cbn [length]. rewrite app_length. cbn. lia. Qed.

Section Filters.
  Variable lk : lookup_fn.

  Lemma fmt_skip : forall u p rest, u <> [] -> fmt_filter (length u) p (u ++ rest) lk = fmt_filter 0 false rest lk.
  Proof.
    induction u as [|c u IH]; intros p rest Hne; [contradiction|].
    cbn [length app fmt_filter]. destruct u as [|d u]; [reflexivity|].
    apply IH. discriminate.
  Qed.

  Lemma fmt_placeholder n rest r0 : parse_ph r0 = Some (n, rest) ->
    fmt_filter 0 false (c_pct :: r0) lk = lk n ++ fmt_filter (length n + 3) false r0 lk.
  Proof. intro E. cbn [fmt_filter N.eqb Pos.eqb c_pct negb andb]. rewrite E. reflexivity. Qed.

  (* a message without placeholders is output unchanged, whatever percent signs it contains *)
  Lemma fmt_no_placeholder : forall s p, find_vars_f 0 p s = [] -> fmt_filter 0 p s lk = s.
  Proof.
    induction s as [|c r IH]; intros p H; [reflexivity|].
    cbn [fmt_filter find_vars_f] in *.
    destruct ((c =? c_pct)%N && negb p)%bool.
    - destruct (parse_ph r) as [[n rest]|]; [discriminate|]. f_equal. apply IH, H.
    - f_equal. apply IH, H.
  Qed.

  Definition pct_or_end (rest : str) : Prop := rest = [] \/ exists x, rest = c_pct :: x.

  Lemma take_word_app u rest : pct_or_end rest ->
    take_word (u ++ rest) = (fst (take_word u), snd (take_word u) ++ rest).
  Proof.
    intro Hr. induction u as [|c u IH]; cbn [app].
    - destruct Hr as [->|[x ->]]; reflexivity.
    - cbn [take_word]. destruct (is_word c); [|reflexivity].
      rewrite IH. destruct (take_word u) as [w r2]. reflexivity.
  Qed.

  (* a failed placeholder attempt stays failed when the text is followed by nothing or by a '%' *)
  Lemma parse_ph_app_none u rest : pct_or_end rest -> parse_ph u = None -> parse_ph (u ++ rest) = None.
  Proof.
    intros Hr H. unfold parse_ph in *. destruct u as [|c u1]; cbn [app].
    - destruct Hr as [->|[x ->]]; reflexivity.
    - destruct (c =? c_lpar)%N; [|reflexivity].
      rewrite (take_word_app u1 rest Hr). destruct (take_word u1) as [w r2]. cbn [fst snd].
      destruct w as [|w0 w]; [destruct (r2 ++ rest) as [|? [|? ?]]; reflexivity|].
      destruct r2 as [|c1 [|c2 r3]]; cbn [app].
      + destruct Hr as [->|[x ->]]; [reflexivity|]. destruct x; reflexivity.
      + destruct Hr as [->|[x ->]]; [reflexivity|].
        replace (c_pct =? c_s)%N with false by reflexivity. rewrite andb_false_r. reflexivity.
      + destruct ((c1 =? c_rpar)%N && (c2 =? c_s)%N)%bool; [discriminate|reflexivity].
  Qed.

  (* the prev_pct flag of the scan after the text t, entered with flag p *)
  Definition endpct (p : bool) (t : str) : bool :=
    match t with [] => p | _ => (last t 0 =? c_pct)%N end.

  Lemma scan_text : forall t p rest, find_vars_f 0 p t = [] -> pct_or_end rest ->
    fmt_filter 0 p (t ++ rest) lk = t ++ fmt_filter 0 (endpct p t) rest lk.
  Proof.
    induction t as [|c t IH]; intros p rest H Hr; [reflexivity|].
    cbn [app fmt_filter find_vars_f] in *.
    destruct ((c =? c_pct)%N && negb p)%bool eqn:E.
    - destruct (parse_ph t) as [[n r']|] eqn:Ep; [discriminate|].
      rewrite (parse_ph_app_none t rest Hr Ep). f_equal. rewrite (IH true rest H Hr). f_equal.
      destruct t as [|d t]; [|reflexivity].
      cbn. apply andb_true_iff in E. destruct E as [E _]. rewrite E. reflexivity.
    - f_equal. rewrite (IH _ rest H Hr). f_equal.
      destruct t as [|d t]; [|reflexivity]. reflexivity.
  Qed.

  (* messages given as pieces: literal text and placeholders *)
  Inductive piece := PText (t : str) | PVar (n : str).

  Fixpoint ser (ps : list piece) : str :=
    match ps with
    | [] => []
    | PText t :: r => t ++ ser r
    | PVar n :: r => c_pct :: c_lpar :: n ++ c_rpar :: c_s :: ser r
    end.

  Fixpoint render (ps : list piece) : str :=
    match ps with
    | [] => []
    | PText t :: r => t ++ render r
    | PVar n :: r => lk n ++ render r
    end.

  (* a text piece: non-empty, no placeholder of its own, not ending in '%', and followed by a placeholder or the end *)
  Fixpoint wf_pieces (ps : list piece) : Prop :=
    match ps with
    | [] => True
    | PVar n :: r => name_ok n /\ wf_pieces r
    | PText t :: r =>
        t <> [] /\ find_vars t = [] /\ (last t 0 =? c_pct)%N = false /\
        match r with [] | PVar _ :: _ => True | PText _ :: _ => False end /\ wf_pieces r
    end.

  Lemma ser_pct_or_end r : match r with [] | PVar _ :: _ => True | PText _ :: _ => False end -> pct_or_end (ser r).
  Proof.
    destruct r as [|[t|n] r]; intro H; [left; reflexivity|contradiction|right; eexists; reflexivity].
  Qed.

End Filters.

(* placeholders of the tag: names are [\w?-]+ *)
Definition tname_ok (n : str) : Prop := n <> [] /\ forallb is_tname n = true.

Lemma is_tname_not_special c : is_tname c = true -> c <> c_pct /\ c <> c_rpar /\ c <> c_lpar /\ is_space c = false.
Proof. unfold is_tname, is_word, is_space, c_pct, c_rpar, c_lpar. intro H. lia. Qed.

Lemma take_tname_name n x : forallb is_tname n = true -> head_not is_tname x -> take_tname (n ++ x) = (n, x).
Proof.
  intros Hn Hx. induction n as [|c n IH]; cbn [app].
  - destruct x as [|c x]; cbn [take_tname]; [reflexivity|]. rewrite Hx. reflexivity.
  - cbn [forallb] in Hn. apply andb_true_iff in Hn. destruct Hn as [Hc Hn].
    cbn [take_tname]. rewrite Hc, (IH Hn). reflexivity.
Qed.

Lemma parse_ph_t_placeholder n rest : tname_ok n ->
  parse_ph_t (c_lpar :: n ++ c_rpar :: c_s :: rest) = Some (n, rest).
Proof.
  intros [Hne Hw]. unfold parse_ph_t. change (c_lpar =? 40)%N with true. cbv iota.
  rewrite (take_tname_name n (c_rpar :: c_s :: rest) Hw) by reflexivity.
  destruct n as [|c n]; [contradiction|]. reflexivity.
Qed.

(* the tag: doubling '%' and printf-formatting restores the text *)
Section Tag.
  Variable lk : lookup_fn.

  Lemma printf_skip get : forall u rest, printf (length u) (u ++ rest) get = printf 0 rest get.
  Proof.
    induction u as [|c u IH]; intro rest; [reflexivity|]. cbn [length app printf]. apply IH.
  Qed.

  Lemma take_until_rpar_name n x : forallb is_tname n = true ->
    take_until_rpar (n ++ c_rpar :: x) = Some (n, x).
  Proof.
    intro Hn. induction n as [|c n IH]; cbn [app take_until_rpar].
    - rewrite N.eqb_refl. reflexivity.
    - cbn [forallb] in Hn. apply andb_true_iff in Hn. destruct Hn as [Hc Hn].
      destruct (is_tname_not_special c Hc) as (_ & Hr & _).
      destruct (N.eqb_spec c c_rpar); [contradiction|]. rewrite (IH Hn). reflexivity.
  Qed.

  Definition names_ok (items : list item) : Prop := forall n, In (IVar n) items -> tname_ok n.

  Lemma names_ok_head n r : names_ok (IVar n :: r) -> tname_ok n.
  Proof. intro H. apply H. left. reflexivity. Qed.

  Lemma names_ok_tail i r : names_ok (i :: r) -> names_ok r.
  Proof. intros H m Hm. apply H. right. exact Hm. Qed.

  (* printf at a placeholder whose key the mapping has *)
  Lemma printf_placeholder get k rest r0 v : take_until_rpar r0 = Some (k, c_s :: rest) -> get k = Some v ->
    printf 0 (c_pct :: c_lpar :: r0) get = do o <- printf (length k + 3) (c_lpar :: r0) get; Ok (v ++ o).
  Proof.
    intros E G. cbn [printf N.eqb Pos.eqb c_pct c_lpar]. rewrite E. cbn [N.eqb Pos.eqb c_s]. rewrite G. reflexivity.
  Qed.

  Theorem printf_restores_text get : forall items,
    names_ok items -> (forall n, In (IVar n) items -> get n = Some (lk n)) ->
    printf 0 (serialize items) get = Ok (render_items items lk).
  Proof.
    induction items as [|i r IH]; intros Hok Hget; [reflexivity|].
    assert (IH' : printf 0 (serialize r) get = Ok (render_items r lk)).
    { apply IH; [exact (names_ok_tail i r Hok)|intros n Hn; apply Hget; right; exact Hn]. }
    destruct i as [c|n].
    - cbn [serialize render_items]. destruct (N.eqb_spec c c_pct) as [->|Hne].
      + cbn [printf]. cbn [N.eqb c_pct Pos.eqb]. cbn [printf]. rewrite IH'. reflexivity.
      + cbn [printf]. destruct (N.eqb_spec c c_pct); [contradiction|]. rewrite IH'. reflexivity.
    - destruct (names_ok_head n r Hok) as [Hne Hw]. cbn [serialize render_items].
      rewrite (printf_placeholder get n (serialize r) _ (lk n) (take_until_rpar_name n _ Hw) (Hget n (or_introl eq_refl))).
      rewrite ph_split, <- ph_len. rewrite printf_skip, IH'. reflexivity.
  Qed.

  (* findall with the repaired pattern sees every variable of the block, whatever percent signs surround it *)
  Fixpoint names_of (items : list item) : list str :=
    match items with [] => [] | IChar _ :: r => names_of r | IVar n :: r => n :: names_of r end.

  Lemma find_vars_t_skip : forall u run rest, u <> [] ->
    find_vars_t (length u) run (u ++ rest) = find_vars_t 0 0 rest.
  Proof.
    induction u as [|c u IH]; intros run rest Hne; [contradiction|].
    cbn [length app find_vars_t]. destruct u as [|d u]; [reflexivity|]. apply IH. discriminate.
  Qed.

  (* findall at a placeholder after an even number of percent signs *)
  Lemma find_vars_t_placeholder run r0 n rest : Nat.even run = true -> parse_ph_t r0 = Some (n, rest) ->
    find_vars_t 0 run (c_pct :: r0) = n :: find_vars_t (length n + 3) 0 r0.
  Proof. intros Hev E. cbn [find_vars_t N.eqb Pos.eqb c_pct]. rewrite Hev, E. reflexivity. Qed.

  Lemma find_vars_serialize : forall items run, names_ok items -> Nat.even run = true ->
    find_vars_t 0 run (serialize items) = names_of items.
  Proof.
    induction items as [|i r IH]; intros run Hok Hev; [reflexivity|].
    pose proof (names_ok_tail i r Hok) as Hok'. destruct i as [c|n].
    - cbn [serialize names_of]. destruct (N.eqb_spec c c_pct) as [->|Hne].
      + cbn [find_vars_t]. cbn [N.eqb c_pct Pos.eqb]. rewrite Hev.
        replace (parse_ph_t (37%N :: serialize r)) with (@None (str * str)) by reflexivity.
        cbn [find_vars_t N.eqb Pos.eqb].
        replace (Nat.even (S run)) with false by (rewrite Nat.even_succ, <- Nat.negb_even, Hev; reflexivity).
        apply IH; [exact Hok'|]. rewrite Nat.even_succ, Nat.odd_succ. exact Hev.
      + cbn [find_vars_t]. destruct (N.eqb_spec c c_pct); [contradiction|]. apply IH; [exact Hok'|reflexivity].
    - cbn [serialize names_of].
      rewrite (find_vars_t_placeholder run _ n _ Hev (parse_ph_t_placeholder n (serialize r) (names_ok_head n r Hok))). f_equal.
      rewrite ph_split, <- ph_len. rewrite find_vars_t_skip by discriminate. apply IH; [exact Hok'|reflexivity].
  Qed.

  Lemma mem_In x l : mem x l = true <-> In x l.
  Proof.
    induction l as [|y l IH]; cbn; [split; [discriminate|tauto]|].
    rewrite orb_true_iff, IH, str_eqb_eq. split; intros [H|H]; auto.
  Qed.

  Lemma names_of_In n items : In (IVar n) items -> In n (names_of items).
  Proof.
    induction items as [|[c|m] r IH]; cbn; [tauto| |].
    - intros [H|H]; [discriminate|auto].
    - intros [H|H]; [inversion H; auto|auto].
  Qed.

  (* C26 (tag): for every block of text characters (any percent signs, parentheses, ...) and variables, formatting
     the message built by validate_message_block gives back the text with the variables substituted *)
  Theorem tag_message_intact items : names_ok items ->
    format_tag_msg (serialize items) lk = Ok (render_items items lk).
  Proof.
    intro Hok. unfold format_tag_msg, find_vars_tag.
    rewrite (find_vars_serialize items 0 Hok eq_refl).
    apply printf_restores_text; [exact Hok|].
    intros n Hn. replace (mem n (names_of items)) with true; [reflexivity|].
    symmetry. apply mem_In, names_of_In, Hn.
  Qed.
End Tag.

(* a text that does not start (head_ns) or end (last_ns) with whitespace: what strip leaves *)
Definition nsp (c : N) : bool := negb (is_space c).
Definition head_ns : str -> Prop := head_not is_space.
Definition last_ns (x : str) : Prop := head_ns (rev x).

Lemma forallb_impl {A} (f g : A -> bool) l : (forall a, f a = true -> g a = true) -> forallb f l = true -> forallb g l = true.
Proof. intros Hfg H. apply forallb_forall. intros a Ha. apply Hfg. revert a Ha. apply forallb_forall, H. Qed.

Lemma drop_space_all g x : forallb is_space g = true -> drop_space (g ++ x) = drop_space x.
Proof.
  induction g as [|c g IH]; cbn [app forallb]; [reflexivity|]. intro H. apply andb_true_iff in H. destruct H as [Hc Hg].
  cbn [drop_space]. rewrite Hc. apply IH, Hg.
Qed.

Lemma drop_space_head x : head_ns x -> drop_space x = x.
Proof. destruct x as [|c x]; cbn; [reflexivity|]. intros ->. reflexivity. Qed.

Lemma drop_space_blank g : forallb is_space g = true -> drop_space g = [].
Proof. intro H. rewrite <- (app_nil_r g), drop_space_all by exact H. reflexivity. Qed.

Lemma strip_core lead core trail : forallb is_space lead = true -> forallb is_space trail = true ->
  head_ns core -> last_ns core -> strip (lead ++ core ++ trail) = core.
Proof.
  intros Hl Ht Hh Hla. unfold strip. rewrite (drop_space_all lead _ Hl).
  destruct core as [|c m].
  - cbn [app]. rewrite (drop_space_blank trail Ht). reflexivity.
  - rewrite (drop_space_head ((c :: m) ++ trail)) by exact Hh.
    rewrite rev_app_distr, drop_space_all by (rewrite forallb_rev; exact Ht).
    rewrite (drop_space_head _ Hla). apply rev_involutive.
Qed.

Lemma collapse_skip : forall u x, collapse (length u) (u ++ x) = collapse 0 x.
Proof. induction u as [|c u IH]; intro x; [reflexivity|]. cbn [length app collapse]. apply IH. Qed.

Lemma collapse_word : forall w x, forallb nsp w = true -> collapse 0 (w ++ x) = w ++ collapse 0 x.
Proof.
  induction w as [|c w IH]; intros x H; [reflexivity|]. cbn [forallb] in H. apply andb_true_iff in H. destruct H as [Hc Hw].
  apply negb_true_iff in Hc. cbn [app collapse]. rewrite Hc. f_equal. apply IH, Hw.
Qed.

Lemma collapse_word_all w : forallb nsp w = true -> collapse 0 w = w.
Proof. intro H. rewrite <- (app_nil_r w) at 1. rewrite collapse_word by exact H. apply app_nil_r. Qed.

Lemma span_space_gap g x : forallb is_space g = true -> head_ns x -> span_space (g ++ x) = (g, x).
Proof.
  intros Hg Hx. induction g as [|c g IH]; cbn [app].
  - destruct x as [|c x]; cbn [span_space]; [reflexivity|]. cbn in Hx. rewrite Hx. reflexivity.
  - cbn [forallb] in Hg. apply andb_true_iff in Hg. destruct Hg as [Hc Hg].
    cbn [span_space]. rewrite Hc, (IH Hg). reflexivity.
Qed.

(* gap_out on the serialised text *)
Definition sgap_out (g : str) : str := if existsb (fun x => (x =? 10)%N) g then [32%N] else g.

Lemma collapse_gap g x : forallb is_space g = true -> head_ns x ->
  collapse 0 (g ++ x) = sgap_out g ++ collapse 0 x.
Proof.
  intros Hg Hx. pose proof (span_space_gap g x Hg Hx) as Hs.
  destruct g as [|c g]; [reflexivity|]. cbn [app] in *.
  assert (Hc : is_space c = true) by (cbn [forallb] in Hg; apply andb_true_iff in Hg; tauto).
  cbn [collapse]. rewrite Hc, Hs. cbn [fst]. unfold sgap_out. f_equal.
  cbn [length]. rewrite Nat.sub_1_r. cbn [Nat.pred]. apply collapse_skip.
Qed.

Lemma serialize_app a b : serialize (a ++ b) = serialize a ++ serialize b.
Proof.
  induction a as [|[c|n] a IH]; cbn [app serialize]; [reflexivity| |].
  - destruct (c =? c_pct)%N; cbn [app]; rewrite IH; reflexivity.
  - rewrite IH. cbn [app]. rewrite <- app_assoc. reflexivity.
Qed.

Lemma names_valid_app a b : names_valid (a ++ b) = (names_valid a && names_valid b)%bool.
Proof.
  induction a as [|[c|n] a IH]; cbn [app names_valid]; [reflexivity|exact IH|]. rewrite IH. apply andb_assoc.
Qed.

Lemma names_valid_app_inv a b : names_valid (a ++ b) = true -> names_valid a = true /\ names_valid b = true.
Proof. rewrite names_valid_app. apply andb_true_iff. Qed.

Lemma nl_is_space c : (c =? 10)%N = true -> is_space c = true.
Proof. intro H. apply N.eqb_eq in H. subst c. reflexivity. Qed.

Lemma space_not_pct c : is_space c = true -> (c =? c_pct)%N = false.
Proof. unfold is_space, c_pct. lia. Qed.

(* a gap serialises to itself: whitespace characters, the same newlines *)
Lemma serialize_gap g : all_space g = true ->
  forallb is_space (serialize g) = true /\ existsb (fun x => (x =? 10)%N) (serialize g) = existsb item_nl g /\
  names_valid g = true.
Proof.
  unfold all_space. induction g as [|[c|n] g IH]; cbn [forallb item_space]; intro H.
  - repeat split.
  - apply andb_true_iff in H. destruct H as [Hc Hg]. destruct (IH Hg) as (I1 & I2 & I3).
    cbn [serialize]. rewrite (space_not_pct c Hc). cbn [forallb existsb item_nl names_valid]. rewrite Hc, I1, I2.
    repeat split. exact I3.
  - discriminate.
Qed.

Lemma serialize_gap_out g : all_space g = true -> serialize (gap_out g) = sgap_out (serialize g).
Proof.
  intro H. destruct (serialize_gap g H) as (_ & Hnl & _). unfold gap_out, sgap_out. rewrite Hnl.
  destruct (existsb item_nl g); reflexivity.
Qed.

Lemma name_valid_chars n : name_valid n = true -> n <> [] /\ forallb is_tname n = true.
Proof. destruct n as [|c n]; [discriminate|]. intro H. split; [discriminate|exact H]. Qed.

Lemma tname_nsp n : forallb is_tname n = true -> forallb nsp n = true.
Proof.
  apply forallb_impl. intros c Hc. destruct (is_tname_not_special c Hc) as (_ & _ & _ & Hs).
  unfold nsp. rewrite Hs. reflexivity.
Qed.

(* a word serialises to non-whitespace characters *)
Lemma serialize_word w : forallb (fun i => negb (item_space i)) w = true -> names_valid w = true ->
  forallb nsp (serialize w) = true /\ (w <> [] -> serialize w <> []).
Proof.
  induction w as [|[c|n] w IH]; cbn [forallb item_space names_valid]; intros H Hv.
  - split; [reflexivity|intro E; exfalso; apply E; reflexivity].
  - apply andb_true_iff in H. destruct H as [Hc Hw]. destruct (IH Hw Hv) as (I1 & _).
    cbn [serialize]. destruct (c =? c_pct)%N; cbn [forallb]; rewrite I1; unfold nsp at 1.
    + split; [reflexivity|discriminate].
    + rewrite Hc. split; [reflexivity|discriminate].
  - apply andb_true_iff in H. destruct H as [_ Hw]. apply andb_true_iff in Hv. destruct Hv as [Hn Hv].
    destruct (IH Hw Hv) as (I1 & _). destruct (name_valid_chars n Hn) as [_ Hch].
    cbn [serialize forallb]. rewrite forallb_app, (tname_nsp n Hch). cbn [forallb]. rewrite I1.
    split; [reflexivity|discriminate].
Qed.

(* the gap and word pairs after the first word of a well-formed block *)
Definition rest_ok (rest : list (list item * list item)) : bool :=
  forallb (fun gw => is_gap (fst gw) && is_word_run (snd gw)) rest.

Lemma is_word_run_inv w : is_word_run w = true -> w <> [] /\ forallb (fun i => negb (item_space i)) w = true.
Proof. destruct w as [|i w]; [discriminate|]. intro H. split; [discriminate|exact H]. Qed.
Lemma is_gap_inv g : is_gap g = true -> g <> [] /\ all_space g = true.
Proof. destruct g as [|i g]; [discriminate|]. intro H. split; [discriminate|exact H]. Qed.

Lemma rest_ok_cons g w rest : rest_ok ((g, w) :: rest) = true -> is_gap g = true /\ is_word_run w = true /\ rest_ok rest = true.
Proof. cbn [rest_ok forallb fst snd]. rewrite !andb_true_iff. tauto. Qed.

(* the words-and-gaps part of a block: collapse rewrites exactly the gaps *)
Lemma collapse_body : forall rest w1, is_word_run w1 = true -> rest_ok rest = true ->
  names_valid (w1 ++ flat_rest rest) = true ->
  collapse 0 (serialize (w1 ++ flat_rest rest)) = serialize (w1 ++ norm_rest rest) /\
  last_ns (serialize (w1 ++ flat_rest rest)) /\ names_valid (w1 ++ norm_rest rest) = true.
Proof.
  induction rest as [|[g w] rest IH]; intros w1 Hw1 Hr Hv; cbn [flat_rest norm_rest] in *.
  - rewrite app_nil_r in *. destruct (is_word_run_inv w1 Hw1) as [Hne Hns].
    destruct (serialize_word w1 Hns Hv) as [S1 S2]. split; [|split; [|exact Hv]].
    + apply collapse_word_all, S1.
    + apply (last_not_forallb is_space); [apply S2, Hne|exact S1].
  - destruct (rest_ok_cons g w rest Hr) as (Hg & Hw & Hr').
    destruct (names_valid_app_inv _ _ Hv) as [Hv1 Hvr]. destruct (names_valid_app_inv _ _ Hvr) as [_ Hv'].
    destruct (is_word_run_inv w1 Hw1) as [Hne1 Hns1]. destruct (serialize_word w1 Hns1 Hv1) as [S1 S2].
    destruct (is_gap_inv g Hg) as [_ Hgs]. destruct (serialize_gap g Hgs) as (G1 & _ & G4).
    destruct (is_word_run_inv w Hw) as [Hne Hns].
    destruct (IH w Hw Hr' Hv') as (I1 & I2 & I3).
    destruct (serialize_word w Hns (proj1 (names_valid_app_inv _ _ Hv'))) as [W1 W2].
    assert (Hhead : head_ns (serialize (w ++ flat_rest rest))).
    { rewrite serialize_app. apply (head_not_app is_space); [apply W2, Hne|exact W1]. }
    assert (Hnonempty : serialize (w ++ flat_rest rest) <> []).
    { rewrite serialize_app. intro E. apply app_eq_nil in E. exact (W2 Hne (proj1 E)). }
    split; [|split].
    + rewrite !serialize_app. rewrite <- !serialize_app with (a := w).
      rewrite collapse_word by exact S1. rewrite collapse_gap by assumption. rewrite I1.
      rewrite (serialize_gap_out g Hgs). reflexivity.
    + rewrite serialize_app. apply (last_not_app is_space).
      * rewrite serialize_app. intro E. apply app_eq_nil in E. exact (Hnonempty (proj2 E)).
      * rewrite serialize_app. apply (last_not_app is_space); [exact Hnonempty|exact I2].
    + rewrite names_valid_app, Hv1, names_valid_app, I3, andb_true_r. cbn [andb].
      unfold gap_out. destruct (existsb item_nl g); [reflexivity|exact G4].
Qed.

Lemma wf_words_inv lead w1 rest trail : wf_block (BWords lead w1 rest trail) = true ->
  all_space lead = true /\ is_word_run w1 = true /\ rest_ok rest = true /\ all_space trail = true.
Proof. cbn [wf_block]. intro H. repeat (apply andb_true_iff in H; destruct H as [H ?]). auto. Qed.

(* strip + re.sub on the serialised block = the serialised normal form of its decomposition *)
Theorem normalise_block b : wf_block b = true -> names_valid (flatten b) = true ->
  normalise (serialize (flatten b)) = serialize (norm_block b) /\ names_valid (norm_block b) = true.
Proof.
  destruct b as [ws|lead w1 rest trail]; intros Hwf Hv.
  - cbn [wf_block flatten norm_block] in *. destruct (serialize_gap ws Hwf) as (G1 & _).
    unfold normalise. rewrite <- (app_nil_r (serialize ws)).
    change (serialize ws ++ []) with (serialize ws ++ [] ++ []).
    rewrite strip_core; [split; reflexivity|exact G1|reflexivity|exact I|exact I].
  - destruct (wf_words_inv _ _ _ _ Hwf) as (Hl & Hw1 & Hr & Ht).
    cbn [flatten norm_block] in *.
    replace (lead ++ w1 ++ flat_rest rest ++ trail) with (lead ++ (w1 ++ flat_rest rest) ++ trail) in *
      by (rewrite <- !app_assoc; reflexivity).
    apply names_valid_app_inv, proj2, names_valid_app_inv, proj1 in Hv.
    destruct (collapse_body rest w1 Hw1 Hr Hv) as (C1 & C2 & C3).
    destruct (serialize_gap lead Hl) as (L1 & _). destruct (serialize_gap trail Ht) as (T1 & _).
    destruct (is_word_run_inv w1 Hw1) as [Hne1 Hns1].
    destruct (serialize_word w1 Hns1 (proj1 (names_valid_app_inv _ _ Hv))) as [S1 S2].
    split; [|exact C3].
    unfold normalise. rewrite (serialize_app lead), (serialize_app (w1 ++ flat_rest rest) trail).
    rewrite strip_core; [exact C1|exact L1|exact T1| |exact C2].
    rewrite serialize_app. apply (head_not_app is_space); [apply S2, Hne1|exact S1].
Qed.

Lemma names_valid_ok items : names_valid items = true -> names_ok items.
Proof.
  induction items as [|[c|n] r IH]; cbn [names_valid]; intros H m Hin.
  - destruct Hin.
  - destruct Hin as [E|Hin]; [discriminate|]. apply (IH H), Hin.
  - apply andb_true_iff in H. destruct H as [Hn Hr]. destruct Hin as [E|Hin].
    + inversion E; subst. apply name_valid_chars, Hn.
    + apply (IH Hr), Hin.
Qed.

Lemma names_ok_valid items : names_ok items -> names_valid items = true.
Proof.
  induction items as [|[c|n] r IH]; cbn [names_valid]; intro H; [reflexivity| |].
  - apply IH, (names_ok_tail _ _ H).
  - rewrite (IH (names_ok_tail _ _ H)), andb_true_r.
    destruct (names_ok_head _ _ H) as [Hne Hch]. destruct n; [contradiction|exact Hch].
Qed.

(* C26 (tag, whole pipeline): for EVERY decomposed block the rendered text is the normal form of the block with the
   variables substituted; a block with an unusable variable name is a syntax error *)
Theorem tag_normalised_block lk b : wf_block b = true ->
  format_tag (flatten b) lk =
  if names_valid (flatten b) then Ok (render_items (norm_block b) lk) else Err ESyntax.
Proof.
  intro Hwf. unfold format_tag. destruct (names_valid (flatten b)) eqn:Hv; [|reflexivity].
  destruct (normalise_block b Hwf Hv) as [Hn Hv']. rewrite Hn.
  apply tag_message_intact, names_valid_ok, Hv'.
Qed.

(* every block has a decomposition *)
Lemma span_items_spec p : forall l, let '(a, b) := span_items p l in
  l = a ++ b /\ forallb p a = true /\ head_not p b /\
  (match l with i :: _ => p i = true -> a <> [] | [] => True end).
Proof.
  induction l as [|i l IH]; cbn [span_items]; [repeat split|].
  destruct (p i) eqn:E.
  - destruct (span_items p l) as [a b]. destruct IH as (I1 & I2 & I3 & _).
    cbn [app forallb]. rewrite E, I2. repeat split; [f_equal; exact I1|exact I3|discriminate].
  - repeat split; [exact E|discriminate].
Qed.

Definition starts_space (l : list item) : Prop := match l with [] => True | i :: _ => item_space i = true end.
Definition starts_word (l : list item) : Prop := match l with [] => False | i :: _ => item_space i = false end.

(* the word cut off the front of a list that starts with a non-whitespace item *)
Lemma span_word l : starts_word l ->
  let '(w, r) := span_items (fun i => negb (item_space i)) l in l = w ++ r /\ is_word_run w = true /\ starts_space r.
Proof.
  intro Hl. pose proof (span_items_spec (fun i => negb (item_space i)) l) as Hs.
  destruct (span_items _ l) as [w r]. destruct Hs as (E & W1 & W2 & W3). split; [exact E|split].
  - destruct l as [|i l]; [destruct Hl|]. cbn in Hl.
    destruct w; [exfalso; apply W3; [rewrite Hl|]; reflexivity|exact W1].
  - destruct r; [exact I|]. apply negb_false_iff, W2.
Qed.

Lemma split_rest_spec : forall fuel l, length l <= fuel -> starts_space l ->
  let '(rest, trail) := split_rest fuel l in
  flat_rest rest ++ trail = l /\ rest_ok rest = true /\ all_space trail = true.
Proof.
  induction fuel as [|f IH]; intros l Hlen Hst.
  - destruct l; [repeat split|cbn in Hlen; lia].
  - cbn [split_rest].
    pose proof (span_items_spec item_space l) as Hs. destruct (span_items item_space l) as [g r1].
    destruct Hs as (E1 & G1 & G2 & G3).
    destruct r1 as [|i r1'].
    + rewrite app_nil_r in E1. subst g. repeat split. exact G1.
    + pose proof (span_word (i :: r1') G2) as Hs2.
      destruct (span_items _ (i :: r1')) as [w r2]. destruct Hs2 as (E2 & W1 & Hst2).
      assert (Hg : is_gap g = true).
      { destruct l as [|j l']; [destruct g; discriminate|]. destruct g; [exfalso; apply G3; [exact Hst|reflexivity]|exact G1]. }
      assert (Hlen2 : length r2 <= f).
      { rewrite E1, E2, !app_length in Hlen. destruct w; [discriminate|]. cbn [length] in Hlen. clear - Hlen. lia. }
      specialize (IH r2 Hlen2 Hst2). destruct (split_rest f r2) as [rest trail]. destruct IH as (I1 & I2 & I3).
      split; [|split; [|exact I3]].
      * cbn [flat_rest]. rewrite E1, E2, <- !app_assoc, I1. reflexivity.
      * cbn [rest_ok forallb fst snd]. fold (rest_ok rest). rewrite Hg, W1, I2. reflexivity.
Qed.

Theorem decompose_ok items : wf_block (decompose items) = true /\ flatten (decompose items) = items.
Proof.
  unfold decompose.
  pose proof (span_items_spec item_space items) as Hs. destruct (span_items item_space items) as [lead r1].
  destruct Hs as (E1 & L1 & L2 & _).
  destruct r1 as [|i r1'].
  - rewrite app_nil_r in E1. subst lead. split; [exact L1|reflexivity].
  - pose proof (span_word (i :: r1') L2) as Hs2.
    destruct (span_items _ (i :: r1')) as [w1 r2]. destruct Hs2 as (E2 & W1 & Hst2).
    pose proof (split_rest_spec (length r2) r2 (le_n _) Hst2) as Hsp.
    destruct (split_rest (length r2) r2) as [rest trail]. destruct Hsp as (I1 & I2 & I3).
    split.
    + cbn [wf_block]. fold (rest_ok rest). unfold all_space at 1. rewrite L1, W1, I2, I3. reflexivity.
    + cbn [flatten]. rewrite E1, E2, <- I1. reflexivity.
Qed.

(* C26 (tag): for EVERY block of characters (any whitespace, percent signs, ...) and variables *)
Theorem tag_normalised lk items :
  format_tag items lk =
  if names_valid items then Ok (render_items (norm_block (decompose items)) lk) else Err ESyntax.
Proof.
  destruct (decompose_ok items) as [Hwf Hfl].
  pose proof (tag_normalised_block lk (decompose items) Hwf) as H. rewrite Hfl in H. exact H.
Qed.

Theorem run_tag_is_spec c : run_tag c = run_tag_spec c.
Proof.
  unfold run_tag, run_tag_spec. rewrite tag_normalised. destruct (names_valid (tc_items c)); reflexivity.
Qed.

(* what the normal form is, read declaratively *)
Definition nonspace (i : item) : bool := negb (item_space i).

Lemma filter_all_space g : all_space g = true -> filter nonspace g = [].
Proof.
  unfold all_space. induction g as [|i g IH]; cbn [forallb filter]; [reflexivity|]. intro H.
  apply andb_true_iff in H. destruct H as [Hi Hg]. unfold nonspace at 1. rewrite Hi. cbn. apply IH, Hg.
Qed.

Lemma gap_out_space g : all_space g = true -> all_space (gap_out g) = true.
Proof. intro H. unfold gap_out. destruct (existsb item_nl g); [reflexivity|exact H]. Qed.

(* the item list does not start with whitespace: [head_not item_space] *)
Definition ihead_ns (l : list item) : Prop := match l with [] => True | i :: _ => item_space i = false end.

Lemma drop_space_id s : forallb nsp s = true -> drop_space s = s.
Proof. destruct s as [|c s]; cbn; [reflexivity|]. intro H. apply andb_true_iff in H. destruct H as [H _].
       apply negb_true_iff in H. rewrite H. reflexivity. Qed.

(* a message without whitespace is left as it is *)
Lemma normalise_id s : forallb nsp s = true -> normalise s = s.
Proof.
  intro H. unfold normalise, strip. rewrite (drop_space_id s H).
  rewrite drop_space_id by (rewrite forallb_rev; exact H). rewrite rev_involutive.
  apply collapse_word_all, H.
Qed.

(* counts: the value a count denotes, or the default *)
Definition dflt (d : Z) (o : option Z) : Z := match o with Some z => z | None => d end.

(* strings: Python's int() reads optional whitespace, an optional sign and decimal digits *)
Definition dval (ds : str) : Z := fold_left (fun a c => (a * 10 + Z.of_N (c - 48))%Z) ds 0%Z.

Lemma digits_us_plain : forall ds acc p, forallb is_digit ds = true -> (ds <> [] \/ p = true) ->
  digits_us ds acc p = Some (fold_left (fun a c => (a * 10 + Z.of_N (c - 48))%Z) ds acc).
Proof.
  induction ds as [|c ds IH]; intros acc p H Hne.
  - destruct Hne as [Hne| ->]; [contradiction|reflexivity].
  - cbn [forallb] in H. apply andb_true_iff in H. destruct H as [Hc Hds].
    cbn [digits_us fold_left]. rewrite Hc. apply IH; [exact Hds|right; reflexivity].
Qed.

Lemma digit_nsp ds : forallb is_digit ds = true -> forallb nsp ds = true.
Proof. apply forallb_impl. intro c. unfold nsp, is_digit, is_space. lia. Qed.

Lemma digit_not_sign c : is_digit c = true -> (c =? 43)%N = false /\ (c =? 45)%N = false.
Proof. unfold is_digit. lia. Qed.

Inductive sign := SNone | SPlus | SMinus.
Definition sign_str (s : sign) : str := match s with SNone => [] | SPlus => [43%N] | SMinus => [45%N] end.
Definition sign_val (s : sign) (z : Z) : Z := match s with SMinus => (- z)%Z | _ => z end.
