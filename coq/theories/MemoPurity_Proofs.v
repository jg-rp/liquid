(* C17 -- proofs about MemoPurity.v: a memo table is invisible exactly when its key equality is respected
   by the function behind it; the repaired date filter and the process model are history independent;
   the original date filter (and a typed variant) is not; the modelled filters never write to a heap
   object that exists. *)
From Coq Require Import String.
From LiquidVerif Require Import Prelude MemoPurity.
Import ListNotations.
Local Open Scope list_scope.

Section MemoProofs.
  Context {K V : Type}.
  Variable keq : K -> K -> bool.
  Variable f : K -> res V.
  Variable cap : nat.

  Notation tbl := (@tbl K V).

  (* every stored value is what the function returns for the STORED key *)
  Definition sound (t : tbl) : Prop := forall k0 v, In (k0, v) t -> f k0 = Ok v.

  Lemma take_hit_some (k : K) (t : tbl) (k0 : K) (v : V) (r : tbl) :
    take_hit keq k t = Some ((k0, v), r) ->
    keq k k0 = true /\ In (k0, v) t /\ (forall e, In e r -> In e t) /\ S (length r) = length t.
  Proof.
    revert r; induction t as [|[k1 v1] t IH]; intros r; simpl; [discriminate|].
    destruct (keq k k1) eqn:E.
    - intros [= <- <- <-]. repeat split; auto.
    - destruct (take_hit keq k t) as [[e r']|]; [|discriminate].
      intros [= -> <-]. destruct (IH r' eq_refl) as (A & B & C & D).
      split; [exact A|]. split; [right; exact B|]. split.
      + intros e [<-|I]; [left; reflexivity | right; auto].
      + simpl. rewrite D. reflexivity.
  Qed.

  Lemma firstn_In {A} n (l : list A) x : In x (firstn n l) -> In x l.
  Proof. revert l; induction n; intros [|y l]; simpl; try tauto. intros [->|H]; auto. Qed.

  Lemma memo_call_sound (t : tbl) (k : K) : sound t -> sound (snd (memo_call keq f cap t k)).
  Proof.
    intro S. unfold memo_call.
    destruct (take_hit keq k t) as [[[k0 v] r]|] eqn:T.
    - destruct (take_hit_some _ _ _ _ _ T) as (_ & I & Sub & _).
      intros k1 v1 [[= <- <-]|H]; [exact (S _ _ I) | exact (S _ _ (Sub _ H))].
    - destruct (f k) as [v| |] eqn:F; simpl; auto.
      intros k1 v1 H. apply firstn_In in H. destruct H as [[= <- <-]|H]; [exact F | auto].
  Qed.

  Lemma memo_state_sound hist : forall t, sound t -> sound (memo_state keq f cap t hist).
  Proof.
    induction hist as [|k r IH]; simpl; auto. intros t S. apply IH, memo_call_sound, S.
  Qed.

  Lemma sound_nil : sound [].
  Proof. intros ? ? []. Qed.

  (* the key determines everything the function depends on *)
  Definition respects : Prop := forall k k0, keq k k0 = true -> f k = f k0.

  Lemma memo_call_transparent (t : tbl) (k : K) : respects -> sound t -> fst (memo_call keq f cap t k) = f k.
  Proof.
    intros R S. unfold memo_call.
    destruct (take_hit keq k t) as [[[k0 v] r]|] eqn:T.
    - destruct (take_hit_some _ _ _ _ _ T) as (E & I & _). simpl. rewrite (R _ _ E). symmetry. apply S, I.
    - destruct (f k); reflexivity.
  Qed.

  (* for EVERY history of earlier calls the memoised result is the function's result *)
  Theorem memo_transparent : respects -> forall hist k, fst (memo_call keq f cap (memo_state keq f cap [] hist) k) = f k.
  Proof.
    intros R hist k. apply memo_call_transparent; auto. apply memo_state_sound, sound_nil.
  Qed.

  Lemma memo_run_map_from (ks : list K) : respects -> forall t : tbl, sound t -> memo_run keq f cap t ks = map f ks.
  Proof.
    intros R. induction ks as [|k r IH]; intros t S; simpl; auto.
    pose proof (memo_call_transparent t k R S) as E. pose proof (memo_call_sound t k S) as S'.
    destruct (memo_call keq f cap t k) as [o t']; simpl in *. subst o. f_equal. apply IH, S'.
  Qed.

  Theorem memo_run_map : respects -> forall ks, memo_run keq f cap [] ks = map f ks.
  Proof. intros R ks. apply memo_run_map_from; auto using sound_nil. Qed.

  (* the table never holds more than maxsize entries *)
  Lemma memo_call_bounded (t : tbl) (k : K) : (length t <= cap)%nat -> (length (snd (memo_call keq f cap t k)) <= cap)%nat.
  Proof.
    intro L. unfold memo_call.
    destruct (take_hit keq k t) as [[[k0 v] r]|] eqn:T.
    - destruct (take_hit_some _ _ _ _ _ T) as (_ & _ & _ & D). simpl. rewrite D. exact L.
    - destruct (f k); simpl; auto. rewrite firstn_length. apply Nat.le_min_l.
  Qed.

  Theorem memo_bounded hist : (length (memo_state keq f cap [] hist) <= cap)%nat.
  Proof.
    assert (G : forall t : tbl, (length t <= cap)%nat -> (length (memo_state keq f cap t hist) <= cap)%nat).
    { induction hist as [|k r IH]; simpl; auto. intros t L. apply IH, memo_call_bounded, L. }
    apply G. apply Nat.le_0_l.
  Qed.

  (* converse: one collision on which the function differs makes the history visible *)
  Theorem memo_collision_visible (k k' : K) (v : V) :
    keq k' k = true -> f k = Ok v -> f k' <> Ok v -> (1 <= cap)%nat ->
    fst (memo_call keq f cap (memo_state keq f cap [] [k]) k') <> f k'.
  Proof.
    intros E F D C. simpl. unfold memo_call at 2. simpl. rewrite F.
    destruct cap as [|c]; [lia|]. simpl. unfold memo_call. simpl. rewrite E. simpl. congruence.
  Qed.
End MemoProofs.

(* a key equality that identifies only identical keys is respected by every function *)
Lemma respects_of_eq {K V} (keq : K -> K -> bool) (f : K -> res V) :
  (forall a b, keq a b = true -> a = b) -> respects keq f.
Proof. intros H a b E. rewrite (H a b E). reflexivity. Qed.

(* Python equality on the modelled values is equality of what is compared: the number (doubled), the instant, the
   text; None has none of the three *)
Definition py_key (p : pv) : option Z * option Z * option str :=
  (num_twice p, match p with PDt i _ => Some i | _ => None end, text_of p).

Lemma py_eq_key a b : py_eq a b = true <-> py_key a = py_key b.
Proof.
  destruct a, b; unfold py_eq, py_key; cbn [num_twice text_of].
  (* values of different classes *)
  all: try (split; discriminate).
  (* two numbers, two instants, two texts *)
  all: try (etransitivity; [first [apply Z.eqb_eq | apply str_eqb_eq]|];
            split; [intros ->; reflexivity | intros [= H]; exact H]).
  split; reflexivity.
Qed.

Lemma py_eq_refl a : py_eq a a = true.
Proof. apply py_eq_key. reflexivity. Qed.

Lemma py_eq_trans x y z : py_eq x y = true -> py_eq y z = true -> py_eq x z = true.
Proof. rewrite !py_eq_key. congruence. Qed.

Lemma pvs_eq_refl l : pvs_eq l l = true.
Proof. unfold pvs_eq. induction l; simpl; auto. rewrite py_eq_refl, IHl. reflexivity. Qed.

Lemma pvs_eq_trans l : forall m n, pvs_eq l m = true -> pvs_eq m n = true -> pvs_eq l n = true.
Proof.
  unfold pvs_eq. induction l as [|x l IH]; intros [|y m] [|z n]; simpl; try discriminate; auto.
  rewrite !andb_true_iff. intros [A B] [C D]. split; [eapply py_eq_trans; eauto | eapply IH; eauto].
Qed.

Lemma py_same_refl a : py_same a a = true.
Proof.
  destruct a; simpl; try reflexivity; try apply Z.eqb_refl; try apply str_eqb_refl.
  - apply eqb_reflx.
  - rewrite !Z.eqb_refl. reflexivity.
Qed.

Lemma opt_same_refl o : opt_same o o = true.
Proof. destruct o as [[a b]|]; simpl; auto. rewrite !py_same_refl. reflexivity. Qed.

Lemma parse_respects : respects pkey_eqb parse_abs.
Proof.
  intros [s d] [s0 d0] E. unfold pkey_eqb in E. simpl in E. apply andb_true_iff in E as [E _].
  apply str_eqb_eq in E. unfold parse_abs. simpl. congruence.
Qed.

(* the date-string table hands back the text it was asked about *)
Lemma parse_call t s day : sound parse_abs t ->
  exists t', memo_call pkey_eqb parse_abs date_cap t (s, day) = (Ok s, t') /\ sound parse_abs t'.
Proof.
  intro S. pose proof (memo_call_transparent pkey_eqb parse_abs date_cap t (s, day) parse_respects S) as E.
  pose proof (memo_call_sound pkey_eqb parse_abs date_cap t (s, day) S) as S'.
  destruct (memo_call pkey_eqb parse_abs date_cap t (s, day)) as [p t']. exists t'. simpl in E. subst p. auto.
Qed.

Lemma with_text_id dat s : text_of dat = Some s -> with_text dat s = dat.
Proof. destruct dat; simpl; try discriminate; intros [= ->]; reflexivity. Qed.

Lemma date_new_call_spec ft t day k : sound parse_abs t ->
  fst (date_new_call ft t day k) = dlook ft k /\ sound parse_abs (snd (date_new_call ft t day k)).
Proof.
  intro S. destruct k as [[dat fmt] env]. unfold date_new_call.
  destruct (text_of dat) as [s|] eqn:T; [|split; auto].
  destruct (is_special s); [split; auto|].
  destruct (parse_call t s day S) as (t' & -> & S'). rewrite (with_text_id _ _ T). split; auto.
Qed.

Lemma date_new_state_sound ft hist : forall t, sound parse_abs t -> sound parse_abs (date_new_state ft t hist).
Proof.
  induction hist as [|[day k] r IH]; simpl; auto. intros t S. apply IH. apply date_new_call_spec, S.
Qed.

(* whatever was rendered before (on whatever days), the repaired date filter returns what it returns in a process
   that has rendered nothing *)
Theorem date_new_history_independent ft hist day k :
  fst (date_new_call ft (date_new_state ft [] hist) day k) = dlook ft k.
Proof. apply date_new_call_spec. apply date_new_state_sound. apply sound_nil. Qed.

(* the original date filter: 1 | date: '%Y' and then 1.0 | date: '%Y' *)
Definition y_fmt : pv := PStr (mlit "%Y"%string).
Definition old_witness_table : dtab :=
  [ ((PInt 1, y_fmt, 0%N), Ok (mlit "1970"%string));
    ((PFloat 2, y_fmt, 0%N), Err EFilterArg) ].

Theorem date_old_refuted :
  exists ft hist k, fst (date_old_call ft (memo_state dkey_py_eq (dlook ft) date_cap [] hist) k) <> dlook ft k.
Proof.
  exists old_witness_table, [(PInt 1, y_fmt, 0%N)], (PFloat 2, y_fmt, 0%N).
  vm_compute. discriminate.
Qed.

(* the same through the general converse: any function that tells 1 from 1.0 is exposed *)
Theorem date_old_collision f :
  f (PInt 1, y_fmt, 0%N) = Ok (mlit "1970"%string) -> f (PFloat 2, y_fmt, 0%N) <> Ok (mlit "1970"%string) ->
  fst (memo_call dkey_py_eq f date_cap (memo_state dkey_py_eq f date_cap [] [(PInt 1, y_fmt, 0%N)]) (PFloat 2, y_fmt, 0%N))
  <> f (PFloat 2, y_fmt, 0%N).
Proof.
  intros A B. apply memo_collision_visible with (v := mlit "1970"%string); auto. unfold date_cap. lia.
Qed.

(* lru_cache(typed=True) would not be enough: equal instants in different zones have the same type *)
Definition h_fmt : pv := PStr (mlit "%H"%string).
Definition typed_witness_table : dtab :=
  [ ((PDt 26297280 0, h_fmt, 0%N), Ok (mlit "00"%string));
    ((PDt 26297280 300, h_fmt, 0%N), Ok (mlit "05"%string)) ].

Theorem date_typed_cache_refuted :
  exists ft hist k,
    fst (memo_call dkey_typed_eq (dlook ft) date_cap (memo_state dkey_typed_eq (dlook ft) date_cap [] hist) k) <> dlook ft k.
Proof.
  exists typed_witness_table, [(PDt 26297280 0, h_fmt, 0%N)], (PDt 26297280 300, h_fmt, 0%N).
  vm_compute. discriminate.
Qed.

(* the process: three tables in front of the identity, and the date-string table *)
Record proc_sound (p : proc) : Prop := {
  ps_impl : sound (fun c => Ok c) (p_impl p);
  ps_lex : sound (fun d => Ok d) (p_lex p);
  ps_parser : sound (fun e => Ok e) (p_parser p);
  ps_parse : sound parse_abs (p_parse p)
}.

(* the behaviour of a job does not depend on the TYPE of environment arguments that compare equal *)
Definition cfg_respected (ft : jtab) : Prop := forall a b, job_keq a b = true -> jlook ft a = jlook ft b.

(* a table in front of the identity answers with a key that the key equality relates to the query *)
Lemma id_memo_call {K} (keq : K -> K -> bool) c (t : @tbl K K) (k : K) :
  sound (fun x => Ok x) t ->
  exists k' t', memo_call keq (fun x => Ok x) c t k = (Ok k', t') /\ (k' = k \/ keq k k' = true) /\
                sound (fun x => Ok x) t'.
Proof.
  intro S. pose proof (memo_call_sound keq (fun x : K => Ok x) c t k S) as S'.
  unfold memo_call in *. destruct (take_hit keq k t) as [[[k0 v] r]|] eqn:T.
  - destruct (take_hit_some _ _ _ _ _ _ T) as (E & I & _). apply S in I. injection I as <-. eauto 6.
  - eauto 6.
Qed.

Lemma step_spec ft p j :
  cfg_respected ft -> proc_sound p ->
  fst (step ft p j) = jlook ft j /\ proc_sound (snd (step ft p j)).
Proof.
  intros R [S1 S2 S3 S4]. unfold step.
  (* 1. the environment: its delimiters and flags compare equal to the job's *)
  set (env := if j_implicit j then _ else _).
  assert (E1 : sound (fun c => Ok c) (snd env) /\
               pvs_eq (j_delims j) (fst (fst env)) = true /\ pvs_eq (j_flags j) (snd (fst env)) = true).
  { subst env. destruct (j_implicit j); [|cbn [fst snd]; auto using pvs_eq_refl].
    destruct (id_memo_call cfg_py_eq impl_cap (p_impl p) (j_delims j, j_flags j) S1) as (c & ti & -> & B & C).
    cbn [ok_or fst snd]. split; [exact C|].
    destruct B as [->|B]; [cbn [fst snd]; auto using pvs_eq_refl|]. apply andb_true_iff in B. exact B. }
  destruct env as [c ti]. cbn [fst snd] in E1. destruct E1 as (Si & Cd & Cf).
  (* 2. lexer and parser *)
  destruct (id_memo_call pvs_eq lex_cap (p_lex p) (fst c) S2) as (d & tl & -> & B2 & C2).
  destruct (id_memo_call N.eqb lex_cap (p_parser p) (j_env j) S3) as (e & tp & -> & B3 & C3).
  cbn [ok_or].
  assert (e = j_env j) as -> by (destruct B3 as [->|B3]; [reflexivity | symmetry; apply N.eqb_eq, B3]).
  assert (Cd' : pvs_eq (j_delims j) d = true) by (destruct B2 as [->|B2]; [exact Cd | eapply pvs_eq_trans; eauto]).
  (* 3. the date argument comes back as it went in *)
  set (date := match j_date j with Some _ => _ | None => _ end).
  assert (E3 : fst date = j_date j /\ sound parse_abs (snd date)).
  { subst date. destruct (j_date j) as [[dat fmt]|]; [|split; auto].
    destruct (text_of dat) as [s|] eqn:T; [|split; auto].
    destruct (is_special s); [split; auto|].
    destruct (parse_call (p_parse p) s (j_day j) S4) as (tq & -> & Sq).
    cbn [ok_or fst snd]. rewrite (with_text_id _ _ T). split; auto. }
  destruct date as [dt tq]. cbn [fst snd] in E3. destruct E3 as [-> Sq].
  cbn [fst snd]. split; [|constructor; assumption].
  symmetry. apply R. unfold job_keq. cbn [j_implicit j_env j_delims j_flags j_date j_day j_rest].
  rewrite eqb_reflx, N.eqb_refl, opt_same_refl, Z.eqb_refl, N.eqb_refl, Cd', Cf. reflexivity.
Qed.

Lemma proc_state_sound ft hist : cfg_respected ft -> forall p, proc_sound p -> proc_sound (proc_state ft p hist).
Proof.
  intro R. induction hist as [|j r IH]; simpl; auto. intros p S. apply IH. apply step_spec; auto.
Qed.

Lemma proc0_sound : proc_sound proc0.
Proof. constructor; apply sound_nil. Qed.

(* a render job gives, after ANY history of jobs in the same process, what it gives in a process that has rendered
   nothing *)
Theorem proc_history_independent ft :
  cfg_respected ft -> forall hist j, fst (step ft (proc_state ft proc0 hist) j) = jlook ft j.
Proof.
  intros R hist j. apply step_spec; auto. apply proc_state_sound; auto using proc0_sound.
Qed.

Theorem proc_run_is_fresh ft : cfg_respected ft -> forall js, proc_run ft proc0 js = map (jlook ft) js.
Proof.
  intro R.
  assert (G : forall js p, proc_sound p -> proc_run ft p js = map (jlook ft) js).
  { induction js as [|j r IH]; intros p S; simpl; auto.
    destruct (step_spec ft p j R S) as [A B]. destruct (step ft p j) as [o p']. simpl in *. subst o. f_equal. auto. }
  intro js. apply G, proc0_sound.
Qed.

Lemma alloc_extends h l : exists ext, fst (alloc h l) = h ++ ext.
Proof. exists [l]. reflexivity. Qed.

Lemma apply_filter_extends h op l a : exists ext, fst (apply_filter h op l a) = h ++ ext.
Proof.
  assert (N : exists ext, h = h ++ ext) by (exists []; rewrite app_nil_r; reflexivity).
  destruct op; simpl; try apply alloc_extends; auto.
  - destruct l; auto. destruct (cells h a0); auto.
  - destruct l; auto. destruct (cells h a0); auto.
  - destruct l; auto. destruct (rev (cells h a0)); auto.
  - destruct a; auto. destruct l; try apply alloc_extends; auto.
Qed.

Theorem chain_extends fs : forall h l, exists ext, fst (chain h l fs) = h ++ ext.
Proof.
  unfold chain. induction fs as [|[op a] r IH]; intros h l; simpl.
  - exists []. rewrite app_nil_r. reflexivity.
  - destruct (apply_filter_extends h op l a) as [e1 E1].
    destruct (apply_filter h op l a) as [h1 v1] eqn:A. simpl in E1. subst h1.
    destruct (IH (h ++ e1) v1) as [e2 E2]. exists (e1 ++ e2). simpl. rewrite E2, app_assoc. reflexivity.
Qed.

(* every list object that existed before a chain of filters has the same contents afterwards *)
Theorem filters_never_write fs h l a : (a < length h)%nat -> cells (fst (chain h l fs)) a = cells h a.
Proof.
  intro L. destruct (chain_extends fs h l) as [ext E]. rewrite E. unfold cells. apply app_nth1, L.
Qed.
