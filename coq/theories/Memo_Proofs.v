(* Memo_Proofs.v — memoisation transparency: a cache all of whose entries satisfy  value = f key, looked up with a
   key equality that decides Leibniz equality of ALL inputs of f, is unobservable; lifted to the three memo tables
   and to histories of environment creations, registrations and parses. *)
From LiquidVerif Require Import Prelude Lex Memo.
Import ListNotations.

Section CacheFacts.
  Context {K V : Type}.
  Variable keqb : K -> K -> bool.
  Hypothesis keqb_eq : forall a b, keqb a b = true <-> a = b.
  Variable P : K * V -> Prop.

  Lemma clookup_in k (c : @cache K V) v : clookup keqb k c = Some v -> In (k, v) c.
  Proof.
    induction c as [|[k' v'] c IH]; simpl; [discriminate|].
    destruct (keqb k k') eqn:E.
    - intros H. inversion H; subst. apply keqb_eq in E. subst. left; reflexivity.
    - intros H. right. auto.
  Qed.

  Lemma Forall_cremove k (c : @cache K V) : Forall P c -> Forall P (cremove keqb k c).
  Proof.
    induction c as [|[k' v'] c IH]; simpl; auto. intros H. inversion H; subst.
    destruct (keqb k k'); auto.
  Qed.

  Lemma Forall_firstn {A} (Q : A -> Prop) n (l : list A) : Forall Q l -> Forall Q (firstn n l).
  Proof. revert l; induction n; intros l H; simpl; auto. destruct l; auto. inversion H; subst. constructor; auto. Qed.
End CacheFacts.

Section Transparent.
  Context {K V : Type}.
  Variable keqb : K -> K -> bool.
  Hypothesis keqb_eq : forall a b, keqb a b = true <-> a = b.
  Variable f : K -> V.

  Definition sound (c : @cache K V) : Prop := Forall (fun kv => snd kv = f (fst kv)) c.

  (* the generic lemma: whatever the table holds, a memoised call returns f k, and the table stays sound *)
  Lemma memo_transparent n c k : sound c -> fst (cached keqb n f c k) = f k /\ sound (snd (cached keqb n f c k)).
  Proof.
    intros Hs. unfold cached. destruct (clookup keqb k c) as [v|] eqn:E.
    - apply (clookup_in keqb keqb_eq) in E. unfold sound in Hs. rewrite Forall_forall in Hs.
      pose proof (Hs _ E) as Hv. simpl in Hv. simpl. split; auto.
      constructor; auto. apply Forall_cremove. apply Forall_forall. exact Hs.
    - simpl. split; auto. destruct n; simpl; [constructor|]. constructor; auto. apply Forall_firstn. exact Hs.
  Qed.
End Transparent.

Lemma delims_eqb_eq a b : delims_eqb a b = true <-> a = b.
Proof.
  unfold delims_eqb. rewrite !andb_true_iff, !str_eqb_eq. destruct a, b; simpl. split.
  - intros (((((-> & ->) & ->) & ->) & ->) & ->). reflexivity.
  - intros H. inversion H; subst. repeat split.
Qed.

Lemma cfg_eqb_eq a b : cfg_eqb a b = true <-> a = b.
Proof.
  unfold cfg_eqb. rewrite !andb_true_iff, delims_eqb_eq, eqb_true_iff, N.eqb_eq. destruct a, b; simpl. split.
  - intros ((-> & ->) & ->). reflexivity.
  - intros H. inversion H; subst. repeat split.
Qed.

Record inv (s : pstate) : Prop := {
  inv_lexers : sound compile_lexer (ps_lexers s);
  inv_parsers : sound (fun i : nat => i) (ps_parsers s);
  inv_implicit : Forall (fun kv => exists ed, nth_error (ps_envs s) (snd kv) = Some ed /\ ed_cfg ed = fst kv) (ps_implicit s)
}.

Lemma inv0 : inv ps0.
Proof. constructor; constructor. Qed.

Definition bad_env : presult := (Err EOtherForeign, None).

Lemma do_parse_correct s e src : inv s ->
  fst (do_parse s e src) = match nth_error (ps_envs s) e with Some ed => fresh_parse ed src | None => bad_env end
  /\ inv (snd (do_parse s e src)).
Proof.
  intros [I1 I2 I3]. unfold do_parse. destruct (nth_error (ps_envs s) e) as [ed|] eqn:E.
  - destruct (memo_transparent Nat.eqb Nat.eqb_eq (fun i => i) 128 (ps_parsers s) e I2) as [P1 P2].
    destruct (memo_transparent delims_eqb delims_eqb_eq compile_lexer 128 (ps_lexers s) (eff_delims (ed_cfg ed)) I1) as [L1 L2].
    destruct (cached Nat.eqb 128 (fun i => i) (ps_parsers s) e) as [p parsers'].
    destruct (cached delims_eqb 128 compile_lexer (ps_lexers s) (eff_delims (ed_cfg ed))) as [lx lexers'].
    simpl in *. subst p lx. rewrite E. repeat split; auto.
  - simpl. repeat split; auto.
Qed.

(* what each operation must return, as a function of the environment objects alone (no memo table occurs here) *)
Definition op_ok (s : pstate) (o : op) (r : option presult) : Prop :=
  match o with
  | Parse e src =>
      r = Some (match nth_error (ps_envs s) e with Some ed => fresh_parse ed src | None => bad_env end)
  | Implicit c _ _ src => exists ed, r = Some (fresh_parse ed src) /\ ed_cfg ed = c
  | _ => r = None
  end.

Lemma nth_error_set_nth {A} (f : A -> A) n (l : list A) i :
  nth_error (set_nth n f l) i = if Nat.eqb i n then option_map f (nth_error l i) else nth_error l i.
Proof.
  revert n i; induction l as [|x l IH]; intros n i; simpl.
  - destruct (Nat.eqb i n); destruct i; destruct n; reflexivity.
  - destruct n, i; simpl; auto.
Qed.

Lemma implicit_inv_mono (envs envs' : list envdata) (c : @cache cfg nat) :
  (forall i ed, nth_error envs i = Some ed -> exists ed', nth_error envs' i = Some ed' /\ ed_cfg ed' = ed_cfg ed) ->
  Forall (fun kv => exists ed, nth_error envs (snd kv) = Some ed /\ ed_cfg ed = fst kv) c ->
  Forall (fun kv => exists ed, nth_error envs' (snd kv) = Some ed /\ ed_cfg ed = fst kv) c.
Proof.
  intros H. apply Forall_impl. intros [k v] (ed & E & Hc). simpl in *.
  destruct (H _ _ E) as (ed' & E' & Hc'). exists ed'. split; auto. congruence.
Qed.

Lemma nth_error_app_old {A} (l l' : list A) i x : nth_error l i = Some x -> nth_error (l ++ l') i = Some x.
Proof. intros E. rewrite nth_error_app1; auto. apply nth_error_Some. congruence. Qed.

(* the invariant survives any change of the heap that keeps every object and its configuration *)
Lemma inv_heap s envs' : inv s ->
  (forall i ed, nth_error (ps_envs s) i = Some ed -> exists ed', nth_error envs' i = Some ed' /\ ed_cfg ed' = ed_cfg ed) ->
  inv {| ps_envs := envs'; ps_lexers := ps_lexers s; ps_parsers := ps_parsers s; ps_implicit := ps_implicit s |}.
Proof. intros [I1 I2 I3] H. constructor; simpl; auto. eapply implicit_inv_mono; eauto. Qed.

Lemma step_correct s o : inv s -> op_ok s o (fst (step_op s o)) /\ inv (snd (step_op s o)).
Proof.
  intros I. pose proof I as [I1 I2 I3]. destruct o as [c tags filters|e t|e f|e src|c tags filters src]; cbn [step_op fst snd].
  - split; [reflexivity|]. apply inv_heap; auto. intros i ed E. exists ed. auto using nth_error_app_old.
  - split; [reflexivity|]. apply inv_heap; auto. intros i ed E. rewrite nth_error_set_nth, E.
    destruct (Nat.eqb i e); simpl; eauto.
  - split; [reflexivity|]. apply inv_heap; auto. intros i ed E. rewrite nth_error_set_nth, E.
    destruct (Nat.eqb i e); simpl; eauto.
  - destruct (do_parse_correct s e src I) as (R & I').
    destruct (do_parse s e src) as [r s']. simpl in *. subst r. split; auto.
  - destruct (clookup cfg_eqb c (ps_implicit s)) as [e|] eqn:E.
    + cbv zeta. apply (clookup_in cfg_eqb cfg_eqb_eq) in E.
      pose proof I3 as I3'. rewrite Forall_forall in I3'. destruct (I3' _ E) as (ed & Hed & Hc). simpl in *.
      set (s1 := {| ps_envs := ps_envs s; ps_lexers := ps_lexers s; ps_parsers := ps_parsers s;
                    ps_implicit := (c, e) :: cremove cfg_eqb c (ps_implicit s) |}).
      assert (I1' : inv s1).
      { constructor; simpl; auto. constructor; [simpl; eauto|]. apply Forall_cremove. exact I3. }
      destruct (do_parse_correct s1 e src I1') as (R & I').
      destruct (do_parse s1 e src) as [r s']. simpl in *. subst r. rewrite Hed. split; eauto.
    + cbv zeta. set (ed := {| ed_cfg := c; ed_tags := tags; ed_filters := filters |}).
      set (s1 := {| ps_envs := ps_envs s ++ [ed]; ps_lexers := ps_lexers s; ps_parsers := ps_parsers s;
                    ps_implicit := firstn 10 ((c, length (ps_envs s)) :: ps_implicit s) |}).
      assert (Hnew : nth_error (ps_envs s ++ [ed]) (length (ps_envs s)) = Some ed).
      { rewrite nth_error_app2 by lia. rewrite Nat.sub_diag. reflexivity. }
      assert (I1' : inv s1).
      { constructor; [exact I1 | exact I2 | ]. unfold s1. cbn [ps_implicit ps_envs]. apply Forall_firstn. constructor; [cbn [fst snd]; eauto|].
        eapply implicit_inv_mono; [|exact I3]. intros i ed0 E0. exists ed0. auto using nth_error_app_old. }
      destruct (do_parse_correct s1 (length (ps_envs s)) src I1') as (R & I').
      change (ps_envs s1) with (ps_envs s ++ [ed]) in R. rewrite Hnew in R.
      destruct (do_parse s1 (length (ps_envs s)) src) as [r s']. cbn [fst snd] in *. subst r. split; [exists ed; split; reflexivity | exact I'].
Qed.

Fixpoint results_ok (s : pstate) (ops : list op) (rs : list (option presult)) : Prop :=
  match ops, rs with
  | [], [] => True
  | o :: ops', r :: rs' => op_ok s o r /\ results_ok (snd (step_op s o)) ops' rs'
  | _, _ => False
  end.

(* C11 part 2: along every history every parse returns what a parse with fresh (empty) memo tables returns for
   the environment's own configuration, tags and filters *)
Theorem env_independence : forall ops s, inv s -> results_ok s ops (fst (run_ops s ops)).
Proof.
  induction ops as [|o ops IH]; intros s I; simpl; auto.
  destruct (step_correct s o I) as [H1 H2].
  destruct (step_op s o) as [x s1] eqn:E. simpl in *.
  specialize (IH s1 H2). destruct (run_ops s1 ops) as [xs s2]. simpl in *. split; auto.
Qed.
