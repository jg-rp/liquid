(* C12: the notions its statements about comparison, if / unless chains and case / when are phrased with, and the facts about
   eval_cond, choose_if, count_matches and vrenders that their proofs share. *)
From LiquidVerif Require Import Prelude PyPrims Cond.

Lemma eval_cond_inv env e b : eval_cond env e = Ok b -> exists v, eval env e = Ok v /\ truthy v = b.
Proof.
  unfold eval_cond. destruct (eval env e) as [v| |]; cbn [bind]; intro H; try discriminate.
  exists v. split; [reflexivity|congruence].
Qed.

Lemma eval_cond_err env e x : eval_cond env e = Err x -> eval env e = Err x.
Proof. unfold eval_cond. destruct (eval env e); cbn [bind]; intro H; congruence. Qed.

(* 0, the empty string, empty collections, empty and blank are all truthy *)
Theorem truthy_zero_and_empties :
  truthy (VInt 0) = true /\ truthy (VStr []) = true /\ truthy (VList []) = true /\ truthy (VDict []) = true /\
  truthy (VDec 0 1) = true /\ truthy VEmpty = true /\ truthy VBlank = true /\ (forall a b, truthy (VRange a b) = true).
Proof. repeat split. Qed.

Theorem eval_cmp_spec env op a b l r :
  eval env a = Ok l -> eval env b = Ok r ->
  eval_cond env (BCmp op a b) =
  match op with
  | OEq => Ok (liq_eq l r)
  | ONe => Ok (negb (liq_eq l r))
  | OLt => liq_lt l r
  | OGt => liq_lt r l
  | OLe => if liq_eq l r then Ok true else liq_lt l r
  | OGe => if liq_eq l r then Ok true else liq_lt r l
  | OContains => liq_contains l r
  end.
Proof.
  intros Ha Hb. unfold eval_cond. cbn [eval]. rewrite Ha, Hb. cbn [bind].
  destruct op; cbn [bind truthy].
  - destruct (liq_eq l r); reflexivity.
  - destruct (liq_eq l r); reflexivity.
  - destruct (liq_lt l r) as [[|]| |]; reflexivity.
  - destruct (liq_lt r l) as [[|]| |]; reflexivity.
  - destruct (liq_eq l r); [reflexivity|]. destruct (liq_lt l r) as [[|]| |]; reflexivity.
  - destruct (liq_eq l r); [reflexivity|]. destruct (liq_lt r l) as [[|]| |]; reflexivity.
  - destruct (liq_contains l r) as [[|]| |]; reflexivity.
Qed.

(* != is the negation of == for every pair of values, and never raises *)
Theorem ne_is_not_eq env a b l r :
  eval env a = Ok l -> eval env b = Ok r ->
  eval_cond env (BCmp ONe a b) = Ok (negb (liq_eq l r)) /\ eval_cond env (BCmp OEq a b) = Ok (liq_eq l r).
Proof. intros Ha Hb. split; [apply (eval_cmp_spec env ONe a b l r Ha Hb)|apply (eval_cmp_spec env OEq a b l r Ha Hb)]. Qed.

(* the pairs < is defined on: two strings, two numbers, or a boolean on either side *)
Definition orderable (l r : val) : bool :=
  match l, r with
  | VStr _, VStr _ => true
  | (VInt _ | VDec _ _), (VInt _ | VDec _ _) => true
  | VBool _, _ | _, VBool _ => true
  | _, _ => false
  end.

Definition falsy_in (env : envt) (c : bexpr) : Prop := eval_cond env c = Ok false.

(* conditions that evaluate to false are passed over: the chain goes on behind them, its arms numbered from there *)
Lemma choose_if_skip env pre rest i has_else :
  Forall (falsy_in env) pre -> choose_if env (pre ++ rest) i has_else = choose_if env rest (i + length pre) has_else.
Proof.
  intro Hpre. revert i. induction Hpre as [|p pre Hp Hpre IH]; intro i; cbn [app choose_if length].
  - rewrite Nat.add_0_r. reflexivity.
  - rewrite Hp. cbn [bind]. rewrite IH, Nat.add_succ_r. reflexivity.
Qed.

(* an error in the first condition that is reached is the outcome *)
Theorem choose_if_error env pre c post i has_else x :
  Forall (falsy_in env) pre -> eval_cond env c = Err x ->
  choose_if env (pre ++ c :: post) i has_else = Err x.
Proof. intros Hpre Hc. rewrite (choose_if_skip env pre _ i has_else Hpre). cbn [choose_if]. rewrite Hc. reflexivity. Qed.

(* unless: the block is rendered when its condition is falsy; otherwise it behaves as the elsif/else chain *)
Theorem choose_unless_spec env c0 elsifs has_else b :
  eval_cond env c0 = Ok b ->
  choose_unless env c0 elsifs has_else = if b then choose_if env elsifs 1 has_else else Ok (Arm 0).
Proof. intro H. unfold choose_unless. rewrite H. reflexivity. Qed.

(* unless c is if not c whatever c evaluates to, an error included *)
Theorem unless_is_if_not env c0 elsifs has_else :
  choose_unless env c0 elsifs has_else = choose_if env (BNot c0 :: elsifs) 0 has_else.
Proof.
  unfold choose_unless. cbn [choose_if]. unfold eval_cond. cbn [eval].
  destruct (eval env c0) as [v| |]; cbn [bind truthy]; try reflexivity. destruct (truthy v); reflexivity.
Qed.

Fixpoint count_eq (v : val) (ws : list val) : nat :=
  match ws with [] => O | w :: r => (if liq_eq v w then 1 else 0) + count_eq v r end.

Fixpoint eval_all (env : envt) (es : list bexpr) : res (list val) :=
  match es with [] => Ok [] | e :: r => do w <- eval env e; do ws <- eval_all env r; Ok (w :: ws) end.

(* a when block is rendered once for each of its values equal (Liquid ==) to the case value *)
Theorem count_matches_spec env v es ws :
  eval_all env es = Ok ws -> count_matches env v es = Ok (count_eq v ws).
Proof.
  revert ws. induction es as [|e es IH]; intros ws; cbn [eval_all count_matches].
  - intro H. inversion H. reflexivity.
  - destruct (eval env e) as [w| |]; cbn [bind]; try discriminate.
    destruct (eval_all env es) as [ws'| |]; cbn [bind]; try discriminate.
    intro H. inversion H. subst ws. rewrite (IH ws' eq_refl). reflexivity.
Qed.

Theorem count_eq_zero_iff v ws : count_eq v ws = 0 <-> Forall (fun w => liq_eq v w = false) ws.
Proof.
  induction ws as [|w ws IH]; cbn [count_eq]; split; intro H; auto.
  - destruct (liq_eq v w) eqn:E; [discriminate|]. constructor; [exact E|]. apply IH. exact H.
  - inversion H as [|? ? Hw Hws]. rewrite Hw. apply IH. exact Hws.
Qed.

(* blocks given with the values of their when expressions *)
Inductive vblk := VWhen (ws : list val) | VElse.

(* how often each block is rendered; [default]: would an else block met next be rendered *)
Fixpoint vrenders (v : val) (blocks : list vblk) (default : bool) : list nat :=
  match blocks with
  | [] => []
  | VWhen ws :: r => count_eq v ws :: vrenders v r (if Nat.eqb (count_eq v ws) 0 then default else false)
  | VElse :: r => (if default then 1 else 0) :: vrenders v r default
  end.

Fixpoint eval_blocks (env : envt) (bs : list caseblk) : res (list vblk) :=
  match bs with
  | [] => Ok []
  | CWhen es :: r => do ws <- eval_all env es; do rest <- eval_blocks env r; Ok (VWhen ws :: rest)
  | CElse :: r => do rest <- eval_blocks env r; Ok (VElse :: rest)
  end.

(* [default] stays true exactly as long as no when block has matched *)
Lemma vrenders_app v pre post d :
  vrenders v (pre ++ post) d =
  vrenders v pre d ++ vrenders v post (d && forallb (fun b => match b with VWhen ws => Nat.eqb (count_eq v ws) 0 | VElse => true end) pre).
Proof.
  revert d. induction pre as [|[ws|] pre IH]; intro d; cbn [app vrenders forallb].
  - rewrite andb_true_r. reflexivity.
  - rewrite IH. f_equal. f_equal. destruct (Nat.eqb (count_eq v ws) 0), d; reflexivity.
  - rewrite IH. reflexivity.
Qed.

Lemma vrenders_length v bs d : length (vrenders v bs d) = length bs.
Proof. revert d. induction bs as [|[ws|] bs IH]; intro d; cbn [vrenders length]; auto. Qed.
