(* Proofs about the inheritance model (Inherit.v).  The stacks that the loop of _build_block_stacks leaves for a chain
   hold, under every name, the chain's definitions of that name, most derived first (build_chain).  From there a block tag
   resolves as the specification says (exec_node_block), the interpreter agrees with the specification node by node
   unless the depth limit stops it (sim), and the render of a chain's leaf is one equation (render_template_chain).
   The fuel never runs out (render_template_fuel). *)
From Coq Require Import ZifyBool.
From LiquidVerif Require Import Prelude PyPrims Inherit.
Import ListNotations.

Section NodeInd.
  Variable P : node -> Prop.
  Hypothesis HText : forall s, P (Text s).
  Hypothesis HVar : forall x, P (Var x).
  Hypothesis HSuper : forall up, P (Super up).
  Hypothesis HBlock : forall name req en body, Forall P body -> P (Block name req en body).
  Hypothesis HFor : forall x items body, Forall P body -> P (For x items body).

  Fixpoint node_ind' (n : node) : P n :=
    match n with
    | Text s => HText s
    | Var x => HVar x
    | Super up => HSuper up
    | Block name req en body =>
        HBlock name req en body
          ((fix go (l : list node) : Forall P l :=
              match l with [] => Forall_nil P | m :: r => Forall_cons m (node_ind' m) (go r) end) body)
    | For x items body =>
        HFor x items body
          ((fix go (l : list node) : Forall P l :=
              match l with [] => Forall_nil P | m :: r => Forall_cons m (node_ind' m) (go r) end) body)
    end.
End NodeInd.

Lemma smem_In x l : smem x l = true <-> In x l.
Proof.
  induction l as [|y l IH]; simpl; [split; [discriminate | tauto]|].
  rewrite orb_true_iff, IH, str_eqb_eq. split; intros [H|H]; auto.
Qed.

Lemma has_dup_spec names : has_dup names = false <-> NoDup names.
Proof.
  induction names as [|n r IH]; cbn; [split; [constructor | reflexivity]|].
  rewrite orb_false_iff, IH. split.
  - intros [Hm Hr]. constructor; auto. intro Hin. apply smem_In in Hin. congruence.
  - intro H. inversion H; subst. split; auto. destruct (smem n r) eqn:E; [apply smem_In in E; contradiction | reflexivity].
Qed.

Lemma split_extends_snd t : snd (split_extends t) = match textends t with [] => false | _ => true end.
Proof.
  induction t as [|[n|p] t IH]; cbn; [reflexivity | | reflexivity].
  destruct (split_extends t) as [pre e]. exact IH.
Qed.

Lemma split_extends_none t : textends t = [] -> split_extends t = (tnodes t, false).
Proof.
  induction t as [|[n|p] t IH]; cbn; [reflexivity | | discriminate].
  intro H. rewrite (IH H). reflexivity.
Qed.

Lemma split_extends_pre pn p post : split_extends (map TNode pn ++ TExtends p :: post) = (pn, true).
Proof. induction pn as [|n pn IH]; cbn; [reflexivity|]. rewrite IH. reflexivity. Qed.

Lemma tblocks_app a b : tblocks (a ++ b) = tblocks a ++ tblocks b.
Proof. unfold tblocks. apply flat_map_app. Qed.
Lemma textends_app a b : textends (a ++ b) = textends a ++ textends b.
Proof. unfold textends. apply flat_map_app. Qed.

Lemma seq_res_cons {A} (f : A -> res str) a l :
  seq_res f (a :: l) = (do x <- f a; do y <- seq_res f l; Ok (x ++ y)).
Proof. reflexivity. Qed.

Lemma seq_res_not_oof {A} (f : A -> res str) l :
  Forall (fun a => f a <> OutOfFuel) l -> seq_res f l <> OutOfFuel.
Proof.
  induction 1 as [|a l Ha _ IH]; [discriminate|].
  rewrite seq_res_cons. destruct (f a); simpl; try congruence.
  destruct (seq_res f l); simpl; congruence.
Qed.

Lemma post_not_oof up r : r <> OutOfFuel -> post up r <> OutOfFuel.
Proof. destruct up, r; cbn; congruence. Qed.

Lemma wrap_not_oof b r : r <> OutOfFuel -> wrap b r <> OutOfFuel.
Proof. destruct b, r; cbn; congruence. Qed.

(* Two computations agree as far as G can tell: G X -> Y = X.  Every combinator of the interpreters (wrap, post, seq_res)
   is a bind, so agreement passes through them for any G that holds of every Ok and fails of OutOfFuel.  Used with
   G = good (model against specification) and G = live (specification at two amounts of fuel). *)
Section Agree.
  Variable G : res str -> Prop.
  Hypothesis G_ok : forall x, G (Ok x).
  Hypothesis G_oof : ~ G OutOfFuel.

  Lemma bind_agree (X Y : res str) (k k' : str -> res str) :
    (G X -> Y = X) -> (forall x, G (k x) -> k' x = k x) -> G (bind X k) -> bind Y k' = bind X k.
  Proof.
    intros HX Hk Hg. destruct X as [x|e|]; cbn [bind] in Hg |- *.
    - rewrite (HX (G_ok x)). exact (Hk x Hg).
    - rewrite (HX Hg). reflexivity.
    - contradiction.
  Qed.

  Lemma wrap_agree b X Y : (G X -> Y = X) -> G (wrap b X) -> wrap b Y = wrap b X.
  Proof. intro H. destruct b; [|exact H]. apply bind_agree; [exact H | reflexivity]. Qed.

  Lemma post_agree up X Y : (G X -> Y = X) -> G (post up X) -> post up Y = post up X.
  Proof. intro H. destruct up; [|exact H]. apply bind_agree; [exact H | reflexivity]. Qed.

  Lemma seq_res_agree {A} (f g : A -> res str) l :
    Forall (fun a => G (f a) -> g a = f a) l -> G (seq_res f l) -> seq_res g l = seq_res f l.
  Proof.
    induction 1 as [|a l Ha _ IH]; [reflexivity|]. rewrite !seq_res_cons.
    apply bind_agree; [exact Ha|]. intro x. apply bind_agree; [exact IH | reflexivity].
  Qed.
End Agree.

(* good: a result the specification answers for -- the depth limit is not its business; live: any result but OutOfFuel *)
Definition good (r : res str) : Prop := r <> OutOfFuel /\ r <> Err EContextDepth.
Definition live (r : res str) : Prop := r <> OutOfFuel.

Lemma good_ok x : good (Ok x).
Proof. split; discriminate. Qed.
Lemma good_oof : ~ good OutOfFuel.
Proof. intros [H _]. exact (H eq_refl). Qed.
Lemma live_ok x : live (Ok x).
Proof. discriminate. Qed.
Lemma live_oof : ~ live OutOfFuel.
Proof. intro H. exact (H eq_refl). Qed.

Lemma wrap_sim b X Y r :
  (forall r', X = r' -> good r' -> Y = r') -> wrap b X = r -> good r -> wrap b Y = r.
Proof. intros H <-. apply (wrap_agree good good_ok good_oof). exact (H X eq_refl). Qed.

Lemma wrap_mono b X Y r :
  (forall r', X = r' -> r' <> OutOfFuel -> Y = r') -> wrap b X = r -> r <> OutOfFuel -> wrap b Y = r.
Proof. intros H <-. apply (wrap_agree live live_ok live_oof). exact (H X eq_refl). Qed.

(* Every jump to another body either deepens the copy depth (bounded by L), or pushes on the scope of the context a
   block.super renders in (bounded by L), so the number of nested jumps is bounded by a function of L alone. *)
Definition depth_measure (L d s : nat) : nat := (L + 2 - d) * (L + 3) + (L + 2 - s).

(* inside the most-derived definition the measure is that of the block tag's context, which block.super returns to *)
Definition phi (L : nat) (c : ctx) : nat :=
  match c_block c with
  | Some (HSite _ s d _) => depth_measure L d s * 2
  | _ => depth_measure L (c_d c) (c_s c) * 2 + 1
  end.

Definition wf_ctx (L : nat) (c : ctx) : Prop :=
  match c_block c with
  | Some (HSite _ s d _) => c_d c = S d /\ d <= L
  | _ => True
  end.

Lemma depth_measure_step_d L d s s' : d <= L -> depth_measure L (S d) s' < depth_measure L d s.
Proof.
  intro H. unfold depth_measure.
  replace (L + 2 - d) with (S (L + 2 - S d)) by lia.
  rewrite Nat.mul_succ_l. lia.
Qed.

(* a context's own depth counters never weigh more than its measure *)
Lemma phi_own L c : wf_ctx L c -> depth_measure L (c_d c) (c_s c) * 2 + 1 <= phi L c.
Proof.
  unfold wf_ctx, phi. destruct (c_block c) as [[e s d ps|ps]|]; [|lia..].
  intros [-> Hd]. pose proof (depth_measure_step_d L d s (c_s c) Hd). lia.
Qed.

(* pushing a scope, below the limit, onto the context a body is rendered in *)
Lemma phi_push L d s e ps :
  (L <? s) = false -> phi L {| c_env := e; c_s := S s; c_d := d; c_block := Some (HCur ps) |} < depth_measure L d s * 2.
Proof. intro H. apply Nat.ltb_ge in H. unfold phi, depth_measure. cbn. lia. Qed.

Lemma phi_loop L c e : phi L {| c_env := e; c_s := S (c_s c); c_d := c_d c; c_block := c_block c |} <= phi L c.
Proof. unfold phi, depth_measure. cbn. destruct (c_block c) as [[]|]; lia. Qed.

Lemma exec_node_fuel sup nb L st f :
  (forall c body, wf_ctx L c -> phi L c < f -> exec_body f sup nb L st c body <> OutOfFuel) ->
  forall n c, wf_ctx L c -> phi L c < S f -> exec_node sup nb L st (exec_body f sup nb L st) c n <> OutOfFuel.
Proof.
  intros IHf. induction n as [s|x|up|name req en body IHb|x items body IHb] using node_ind'; intros c Hwf Hphi;
    cbn [exec_node]; try discriminate.
  - apply post_not_oof.
    unfold phi in Hphi. destruct (c_block c) as [[e s d [|p rest]|[|p rest]]|]; try discriminate.
    + destruct (L <? s) eqn:Hs; [discriminate|].
      apply IHf; [exact I|]. pose proof (phi_push L d s e rest Hs). lia.
    + destruct (L <? c_s c) eqn:Hs; [discriminate|].
      apply IHf; [exact I|]. pose proof (phi_push L (c_d c) (c_s c) (c_env c) rest Hs). lia.
  - pose proof (phi_own L c Hwf) as Hown. destruct (slookup name st) as [|it rest].
    + destruct req; [discriminate|]. destruct (L <? c_s c) eqn:Hs; [discriminate|].
      apply IHf; [exact I|]. pose proof (phi_push L (c_d c) (c_s c) (c_env c) [] Hs). lia.
    + destruct (it_required it); [discriminate|]. destruct (L <? c_d c) eqn:Hd; [discriminate|].
      apply IHf; [split; [reflexivity | apply Nat.ltb_ge, Hd]|]. unfold phi; cbn. lia.
  - destruct items as [|v0 items]; [discriminate|]. destruct (L <? c_s c) eqn:Hs; [discriminate|].
    apply seq_res_not_oof. apply Forall_forall. intros v _. apply wrap_not_oof.
    apply seq_res_not_oof. rewrite Forall_forall in *. intros m Hm.
    apply (IHb m Hm); [exact Hwf|]. pose proof (phi_loop L c ((x, v) :: c_env c)). lia.
Qed.

Lemma exec_body_fuel sup nb L st :
  forall fuel c body, wf_ctx L c -> phi L c < fuel -> exec_body fuel sup nb L st c body <> OutOfFuel.
Proof.
  induction fuel as [|f IH]; intros c body Hwf Hphi; [lia|].
  cbn [exec_body]. apply wrap_not_oof. unfold exec_nodes. apply seq_res_not_oof. apply Forall_forall. intros n _.
  apply exec_node_fuel; auto.
Qed.

Lemma exec_fuel sup nb L st : forall fuel c body, wf_ctx L c -> phi L c < fuel -> exec fuel sup nb L st c body <> OutOfFuel.
Proof.
  intros [|f] c body Hwf Hphi; [lia|].
  cbn [exec]. unfold exec_nodes. apply seq_res_not_oof. apply Forall_forall. intros n _.
  apply exec_node_fuel; auto. intros; now apply exec_body_fuel.
Qed.

(* the while loop of _build_block_stacks ends: `seen` grows by a new loader key on every round *)
Lemma build_fuel ld : forall fuel seen st t,
  NoDup seen -> incl seen (map fst ld) -> length ld < fuel + length seen ->
  build fuel ld seen st t <> OutOfFuel.
Proof.
  induction fuel as [|f IH]; intros seen st t Hnd Hincl Hlen.
  - pose proof (NoDup_incl_length Hnd Hincl) as H. rewrite map_length in H. lia.
  - cbn [build]. destruct (stack_blocks st t) as [[ext st']|e|] eqn:Hsb; cbn [bind]; try discriminate.
    + destruct ext as [p|]; [|discriminate].
      destruct (smem p seen) eqn:Hm; [discriminate|].
      unfold load. destruct (alookup p ld) as [t'|] eqn:Hl; cbn [bind]; [|discriminate].
      destruct (parse_ok t'); cbn [bind]; [|discriminate].
      apply IH.
      * constructor; auto. intro Hin. apply smem_In in Hin. congruence.
      * intros q [<-|Hq]; [exact (in_map fst _ _ (alookup_In _ _ _ Hl)) | auto].
      * simpl. lia.
    + unfold stack_blocks in Hsb. destruct (1 <? length (textends t)); [discriminate|].
      destruct (has_dup (map bd_name (tblocks t))); discriminate.
Qed.

(* ... in particular as render_template starts it *)
Lemma build_top_fuel ld t : build (S (S (length ld))) ld [] [] t <> OutOfFuel.
Proof. apply build_fuel; [constructor | intros q [] | simpl; lia]. Qed.

Lemma fuel_bound_phi L s : phi L {| c_env := []; c_s := s; c_d := 0; c_block := None |} < fuel_bound L.
Proof. unfold phi, fuel_bound, depth_measure; cbn. nia. Qed.

Theorem render_template_fuel sup nb L ld data t fuel :
  fuel_bound L <= fuel -> render_template fuel sup nb L ld data t <> OutOfFuel.
Proof.
  intro Hf.
  assert (Hexec : forall st s body, exec fuel sup nb L st {| c_env := data; c_s := s; c_d := 0; c_block := None |} body <> OutOfFuel).
  { intros st s body. apply exec_fuel; [exact I|]. pose proof (fuel_bound_phi L s). unfold phi in *; cbn in *. lia. }
  unfold render_template.
  destruct (L <? 4); [discriminate|]. destruct (split_extends t) as [pre ext].
  destruct (exec fuel sup nb L [] _ pre) as [a|e|] eqn:H1; cbn [bind]; [|discriminate | destruct (Hexec _ _ _ H1)].
  destruct ext; [|discriminate].
  destruct (build _ ld [] [] t) as [[base st]|e|] eqn:H2; cbn [bind]; [|discriminate | destruct (build_top_fuel _ _ H2)].
  destruct (L <? 5); [discriminate|].
  destruct (exec fuel sup nb L st _ (tnodes base)) as [b|e|] eqn:H3; cbn [bind]; [discriminate | discriminate | destruct (Hexec _ _ _ H3)].
Qed.

Theorem render_model_fuel sup nb L ld leaf data fuel :
  fuel_bound L <= fuel -> render_model fuel sup nb L ld leaf data <> OutOfFuel.
Proof.
  intro Hf. unfold render_model, load. destruct (alookup leaf ld) as [t|]; cbn [bind]; [|discriminate].
  destruct (parse_ok t); cbn [bind]; [|discriminate].
  now apply render_template_fuel.
Qed.

(* an endless chain: some set of templates contains the start and, with each member, the parent it extends *)
Definition endless_chain (ld : loader) (t : template) : Prop :=
  exists S : template -> Prop, S t /\ forall u, S u -> exists p u', textends u = [p] /\ alookup p ld = Some u' /\ S u'.

Lemma stack_blocks_err st t e : stack_blocks st t = Err e -> e = EInherit.
Proof.
  unfold stack_blocks. destruct (1 <? length (textends t)); [congruence|].
  destruct (has_dup (map bd_name (tblocks t))); congruence.
Qed.

Lemma stack_blocks_ok st t ext st' :
  stack_blocks st t = Ok (ext, st') ->
  ext = hd_error (textends t) /\ st' = fold_left store_block (tblocks t) st /\
  length (textends t) <= 1 /\ has_dup (map bd_name (tblocks t)) = false.
Proof.
  unfold stack_blocks. destruct (1 <? length (textends t)) eqn:H1; [discriminate|].
  destruct (has_dup (map bd_name (tblocks t))) eqn:H2; [discriminate|].
  intro H; inversion H; subst. repeat split; auto. lia.
Qed.

Lemma build_endless ld (members : template -> Prop) :
  (forall u, members u -> exists p u', textends u = [p] /\ alookup p ld = Some u' /\ members u') ->
  forall fuel seen st t, members t -> build fuel ld seen st t = OutOfFuel \/ build fuel ld seen st t = Err EInherit.
Proof.
  intros Hnext. induction fuel as [|f IH]; intros seen st t Ht; [left; reflexivity|].
  cbn [build]. destruct (stack_blocks st t) as [[ext st']|e|] eqn:Hsb; cbn [bind].
  - apply stack_blocks_ok in Hsb. destruct Hsb as (-> & _ & _ & _).
    destruct (Hnext t Ht) as (p & u' & Hext & Hl & Hu'). rewrite Hext. cbn [hd_error].
    destruct (smem p seen); [right; reflexivity|].
    unfold load. rewrite Hl. destruct (parse_ok u'); cbn [bind]; [|right; reflexivity].
    apply IH; assumption.
  - apply stack_blocks_err in Hsb. subst. right; reflexivity.
  - left; reflexivity.
Qed.

Definition item_of (b : bdef) : item := {| it_body := bd_body b; it_required := bd_required b |}.

(* all definitions of `name` in the templates `ch`, most derived first *)
Definition items_from (ch : list template) (name : str) : list item :=
  flat_map (fun t => match find_block name t with Some b => [item_of b] | None => [] end) ch.

Lemma first_def_items ch name :
  match first_def ch name with
  | Some (b, above) => items_from ch name = item_of b :: items_from above name
  | None => items_from ch name = []
  end.
Proof.
  induction ch as [|t r IH]; cbn; [reflexivity|].
  destruct (find_block name t) as [b|]; cbn; [reflexivity|].
  destruct (first_def r name) as [[b ab]|]; exact IH.
Qed.

Lemma slookup_stack_append name k it st :
  slookup name (stack_append k it st) = if str_eqb name k then slookup name st ++ [it] else slookup name st.
Proof.
  unfold slookup. induction st as [|[k' l] st IH]; cbn.
  - destruct (str_eqb name k); reflexivity.
  - destruct (str_eqb_spec k k') as [->|Hkk']; cbn.
    + destruct (str_eqb_spec name k') as [->|Hn]; reflexivity.
    + destruct (str_eqb_spec name k') as [->|Hn].
      * destruct (str_eqb_spec k' k); [congruence | reflexivity].
      * exact IH.
Qed.

Lemma store_block_lookup name st b :
  slookup name (store_block st b) =
  if str_eqb name (bd_name b) then slookup name st ++ [item_of b] else slookup name st.
Proof.
  unfold store_block. rewrite slookup_stack_append.
  destruct (str_eqb name (bd_name b)); [|reflexivity].
  f_equal. unfold item_of. f_equal. f_equal.
  destruct (slookup (bd_name b) st), (bd_required b); reflexivity.
Qed.

(* the `required` flag stored in a stack is the flag written on the block tag *)
Corollary store_block_required_is_flag st b :
  exists rest, slookup (bd_name b) (store_block st b) = rest ++ [item_of b].
Proof. rewrite store_block_lookup, str_eqb_refl. eauto. Qed.

Lemma fold_store_lookup name bs : forall st,
  slookup name (fold_left store_block bs st) =
  slookup name st ++ map item_of (filter (fun b => str_eqb name (bd_name b)) bs).
Proof.
  induction bs as [|b bs IH]; intro st; cbn; [now rewrite app_nil_r|].
  rewrite IH, store_block_lookup. destruct (str_eqb name (bd_name b)); cbn; [now rewrite <- app_assoc | reflexivity].
Qed.

Lemma filter_nodup name bs :
  has_dup (map bd_name bs) = false ->
  filter (fun b => str_eqb name (bd_name b)) bs =
  match find (fun b => str_eqb name (bd_name b)) bs with Some b => [b] | None => [] end.
Proof.
  induction bs as [|b bs IH]; cbn; [reflexivity|].
  rewrite orb_false_iff. intros [Hm Hd].
  destruct (str_eqb_spec name (bd_name b)) as [->|Hn]; [|auto].
  f_equal. clear IH Hd. induction bs as [|b' bs IH]; cbn in *; [reflexivity|].
  rewrite orb_false_iff in Hm. destruct Hm as [H1 H2]. rewrite H1. auto.
Qed.

Lemma stack_template_lookup name st t :
  has_dup (map bd_name (tblocks t)) = false ->
  slookup name (fold_left store_block (tblocks t) st) = slookup name st ++ items_from [t] name.
Proof.
  intro Hd. rewrite fold_store_lookup, (filter_nodup _ _ Hd). unfold items_from, find_block. cbn.
  destruct (find _ (tblocks t)); cbn; now rewrite ?app_nil_r.
Qed.

Lemma items_from_cons t ch name : items_from (t :: ch) name = items_from [t] name ++ items_from ch name.
Proof. unfold items_from. cbn. now rewrite app_nil_r. Qed.

(* a block tag reached while the stacks hold the definitions of `chain`: the most-derived definition decides *)
Lemma exec_node_block sup nb L st chain jump c name req en body :
  (forall n, slookup n st = items_from chain n) ->
  exec_node sup nb L st jump c (Block name req en body) =
  match first_def chain name with
  | Some (b, above) =>
      if bd_required b then Err ERequiredBlock
      else if L <? c_d c then Err EContextDepth
      else jump {| c_env := c_env c; c_s := 4; c_d := S (c_d c);
                   c_block := Some (HSite (c_env c) (c_s c) (c_d c) (items_from above name)) |} (bd_body b)
  | None =>
      if req then Err ERequiredBlock
      else if L <? c_s c then Err EContextDepth
      else jump {| c_env := c_env c; c_s := S (c_s c); c_d := c_d c; c_block := Some (HCur []) |} body
  end.
Proof.
  intro SC. cbn [exec_node]. rewrite SC. pose proof (first_def_items chain name) as H.
  destruct (first_def chain name) as [[b above]|]; rewrite H; reflexivity.
Qed.

Lemma chain_from_det ld t c1 : chain_from ld t c1 -> forall c2, chain_from ld t c2 -> c1 = c2.
Proof.
  induction 1 as [t Ht|t p t' rest Ht Hl Hc IH]; intros c2 H2; inversion H2; subst; try congruence.
  assert (p0 = p) by congruence. subst. assert (t'0 = t') by congruence. subst.
  f_equal. auto.
Qed.

Lemma chain_from_head ld t c : chain_from ld t c -> exists r, c = t :: r.
Proof. destruct 1; eauto. Qed.

(* what makes _build_block_stacks raise: a repeated block name, or a parent that does not parse (the caller parses the leaf) *)
Definition dup_bad (t : template) : bool := has_dup (map bd_name (tblocks t)).
Definition chain_bad (chain : list template) : bool :=
  existsb dup_bad chain || existsb (fun u => negb (parse_ok u)) (tl chain).

(* every name seen so far starts a chain of at least n templates: with n the length of what is left of a finite chain, none
   of them is met again *)
Definition seen_ok (ld : loader) (seen : list str) (n : nat) : Prop :=
  forall q, In q seen -> exists tq cq, alookup q ld = Some tq /\ chain_from ld tq cq /\ n <= length cq.

Lemma last_default {A} (a : A) l d d' : last (a :: l) d = last (a :: l) d'.
Proof. revert a. induction l as [|b l IH]; intro a; [reflexivity|]. exact (IH b). Qed.

Lemma chain_bad_cons t t' r :
  chain_bad (t :: t' :: r) = dup_bad t || negb (parse_ok t') || chain_bad (t' :: r).
Proof.
  unfold chain_bad. cbn [existsb tl].
  destruct (dup_bad t); [reflexivity|]. destruct (parse_ok t'); cbn [negb orb]; [reflexivity | apply orb_true_r].
Qed.

Lemma existsb_template_bad t rest :
  parse_ok t = true -> existsb template_bad (t :: rest) = chain_bad (t :: rest).
Proof.
  intro Hp. unfold chain_bad. cbn [existsb tl]. unfold template_bad at 1. rewrite Hp, orb_false_r. fold (dup_bad t).
  rewrite <- orb_assoc. f_equal.
  induction rest as [|u rest IH]; [reflexivity|]. cbn [existsb]. rewrite IH. unfold template_bad. fold (dup_bad u).
  destruct (dup_bad u); [reflexivity|]. destruct (parse_ok u); cbn [negb orb]; [reflexivity | symmetry; apply orb_true_r].
Qed.

(* the loop of _build_block_stacks along a finite chain: it stops at the first bad template, or reaches the root having
   appended the chain's definitions to every stack, most derived first *)
Lemma build_chain ld t chain :
  chain_from ld t chain ->
  forall fuel seen st, seen_ok ld seen (length chain) ->
  build fuel ld seen st t = OutOfFuel \/
  exists st', (chain_bad chain = false -> forall name, slookup name st' = slookup name st ++ items_from chain name) /\
    build fuel ld seen st t = if chain_bad chain then Err EInherit else Ok (last chain t, st').
Proof.
  induction 1 as [t Ht|t p t' rest Ht Hl Hc IH]; intros fuel seen st Hseen;
    (destruct fuel as [|f]; [left; reflexivity|]); cbn [build]; unfold stack_blocks; rewrite Ht;
    cbn [length Nat.ltb Nat.leb hd_error]; fold (dup_bad t).
  - right. exists (fold_left store_block (tblocks t) st).
    unfold chain_bad. cbn [existsb tl orb]. rewrite !orb_false_r.
    split; [intros Hd name; now apply stack_template_lookup|]. destruct (dup_bad t); reflexivity.
  - destruct (chain_from_head _ _ _ Hc) as [r' ->]. rewrite chain_bad_cons.
    destruct (dup_bad t) eqn:Hd; cbn [bind orb]; [right; exists st; split; [discriminate | reflexivity]|].
    destruct (smem p seen) eqn:Hm.
    { (* p was seen before: a finite chain does not return to a template it left *)
      exfalso. apply smem_In in Hm. destruct (Hseen p Hm) as (tq & cq & Hq & Hcq & Hlen).
      assert (tq = t') by congruence. subst. rewrite (chain_from_det _ _ _ Hcq _ Hc) in Hlen.
      exact (Nat.nle_succ_diag_l _ Hlen). }
    unfold load. rewrite Hl.
    destruct (parse_ok t') eqn:Hp; cbn [bind negb orb]; [|right; exists st; split; [discriminate | reflexivity]].
    assert (Hs' : seen_ok ld (p :: seen) (length (t' :: r'))).
    { intros q [<-|Hq]; [exists t', (t' :: r'); auto|].
      destruct (Hseen q Hq) as (tq & cq & Hq1 & Hq2 & Hq3). exists tq, cq. repeat split; auto.
      apply Nat.lt_le_incl. exact Hq3. }
    destruct (IH f (p :: seen) (fold_left store_block (tblocks t) st) Hs') as [H|(st' & Hst & H)]; [left; exact H|].
    right. exists st'. split.
    + intros Hb name. rewrite (Hst Hb), (stack_template_lookup _ _ _ Hd), (items_from_cons t (t' :: r')).
      now rewrite app_assoc.
    + rewrite H. change (last (t :: t' :: r') t) with (last (t' :: r') t). now rewrite (last_default t' r' t t').
Qed.

(* the render of the leaf of a chain of at least two templates *)
Lemma render_template_chain fuel sup nb L ld data t chain :
  chain_from ld t chain -> 2 <= length chain ->
  exists st, (chain_bad chain = false -> forall name, slookup name st = items_from chain name) /\
    render_template fuel sup nb L ld data t =
    if L <? 4 then Err EContextDepth else
    do a <- exec fuel sup nb L [] {| c_env := data; c_s := 5; c_d := 0; c_block := None |} (fst (split_extends t));
    if chain_bad chain then Err EInherit
    else if L <? 5 then Err EContextDepth
    else do b <- exec fuel sup nb L st {| c_env := data; c_s := 6; c_d := 0; c_block := None |} (tnodes (last chain t));
         Ok (a ++ b).
Proof.
  intros Hc Hlen.
  assert (Hs : snd (split_extends t) = true).
  { rewrite split_extends_snd. destruct Hc as [t Hext|t p t' rest Hext _ _]; [destruct (Nat.nle_succ_diag_l _ Hlen) | now rewrite Hext]. }
  destruct (build_chain ld t chain Hc (S (S (length ld))) [] []) as [H|(st & SC & Hb)];
    [intros q [] | destruct (build_top_fuel _ _ H) |].
  exists st. split; [exact SC|]. unfold render_template. destruct (split_extends t) as [pre ext]. cbn [fst snd] in *. subst ext. rewrite Hb.
  destruct (L <? 4); [reflexivity|]. destruct (exec fuel sup nb L [] _ pre); cbn [bind]; [|reflexivity..].
  destruct (chain_bad chain); reflexivity.
Qed.

(* the model's context against the specification's: the same variables, and the parent links of the `block` drop are
   the definitions above the current one; in the most-derived definition both remember the block tag's variables *)
Definition handle_rel (h : option handle) (cur : option scur) : Prop :=
  match h, cur with
  | None, None => True
  | Some (HSite e _ _ ps), Some cur => ps = items_from (sc_above cur) (sc_name cur) /\ sc_site cur = Some e
  | Some (HCur ps), Some cur => ps = items_from (sc_above cur) (sc_name cur) /\ (sc_site cur = None \/ ps = [])
  | _, _ => False
  end.

Definition ctx_rel (c : ctx) (sc : sctx) : Prop := c_env c = sc_env sc /\ handle_rel (c_block c) (sc_cur sc).

Lemma ctx_rel_top data s d : ctx_rel {| c_env := data; c_s := s; c_d := d; c_block := None |} {| sc_env := data; sc_cur := None |}.
Proof. split; [reflexivity | exact I]. Qed.

Section Sim.
  Variable sup : bool.
  Variable nb : node -> bool.
  Variable L : nat.
  Variable st : stacks.
  Variable chain : list template.
  Hypothesis SC : forall name, slookup name st = items_from chain name.

  Lemma sim_node f :
    (forall c sc body, ctx_rel c sc -> good (exec_body f sup nb L st c body) ->
                       spec_body f sup nb chain sc body = exec_body f sup nb L st c body) ->
    forall n c sc, ctx_rel c sc -> good (exec_node sup nb L st (exec_body f sup nb L st) c n) ->
                   spec_node sup nb chain (spec_body f sup nb chain) sc n = exec_node sup nb L st (exec_body f sup nb L st) c n.
  Proof.
    intro IHf. induction n as [s|x|up|name req en body IHb|x items body IHb] using node_ind';
      intros c sc [Henv Hblk]; [reflexivity | | | |].
    - cbn [exec_node spec_node]. rewrite Henv. reflexivity.
    - (* Super: the parent links are empty exactly when no definition is left above *)
      cbn [exec_node spec_node]. apply (post_agree good good_ok good_oof).
      unfold handle_rel in Hblk. destruct (c_block c) as [h|], (sc_cur sc) as [cur|]; try contradiction; [|destruct h; contradiction | reflexivity].
      pose proof (first_def_items (sc_above cur) (sc_name cur)) as Hfd.
      destruct (first_def (sc_above cur) (sc_name cur)) as [[b ab]|];
        destruct h as [e s d ps|ps]; destruct Hblk as [-> Hsite]; rewrite Hfd in *; try reflexivity.
      + destruct (L <? s); [intro Hg; destruct (proj2 Hg eq_refl)|].
        apply IHf. rewrite Hsite. split; [reflexivity | split; [reflexivity | left; reflexivity]].
      + destruct Hsite as [Hsite|]; [|discriminate].
        destruct (L <? c_s c); [intro Hg; destruct (proj2 Hg eq_refl)|].
        apply IHf. rewrite Hsite. split; [exact Henv | split; [reflexivity | left; reflexivity]].
    - (* Block *)
      rewrite (exec_node_block sup nb L st chain _ c name req en body SC). cbn [spec_node].
      destruct (first_def chain name) as [[b ab]|]; cbn [bd_required bd_body].
      + destruct (bd_required b); [reflexivity|].
        destruct (L <? c_d c); [intro Hg; destruct (proj2 Hg eq_refl)|].
        apply IHf. split; [exact Henv | split; [reflexivity | cbn; now rewrite Henv]].
      + destruct req; [reflexivity|].
        destruct (L <? c_s c); [intro Hg; destruct (proj2 Hg eq_refl)|].
        apply IHf. split; [exact Henv | split; [reflexivity | right; reflexivity]].
    - (* For *)
      cbn [exec_node spec_node]. destruct items as [|v0 items]; [reflexivity|].
      destruct (L <? c_s c); [intro Hg; destruct (proj2 Hg eq_refl)|].
      apply (seq_res_agree good good_ok good_oof). apply Forall_forall. intros v _.
      apply (wrap_agree good good_ok good_oof). apply (seq_res_agree good good_ok good_oof).
      rewrite Forall_forall in *. intros m Hm.
      apply (IHb m Hm). split; [cbn; now rewrite Henv | exact Hblk].
  Qed.

  Lemma sim_body : forall fuel c sc body,
    ctx_rel c sc -> good (exec_body fuel sup nb L st c body) ->
    spec_body fuel sup nb chain sc body = exec_body fuel sup nb L st c body.
  Proof.
    induction fuel as [|f IH]; intros c sc body HR; [intro Hg; destruct (good_oof Hg)|].
    cbn [exec_body spec_body]. unfold exec_nodes. apply (wrap_agree good good_ok good_oof).
    apply (seq_res_agree good good_ok good_oof). apply Forall_forall. intros n _. now apply sim_node.
  Qed.

  Lemma sim fuel c sc body :
    ctx_rel c sc -> good (exec fuel sup nb L st c body) -> spec_exec fuel sup nb chain sc body = exec fuel sup nb L st c body.
  Proof.
    intro HR. destruct fuel as [|f]; [intro Hg; destruct (good_oof Hg)|].
    cbn [exec spec_exec]. unfold exec_nodes.
    apply (seq_res_agree good good_ok good_oof). apply Forall_forall. intros n _.
    apply sim_node; [exact (sim_body f) | exact HR].
  Qed.
End Sim.

(* the loop of _build_block_stacks reads the blocks and the extends tags of the template it starts from, nothing else
   (a template without extends tag is also its result) *)
Lemma build_ext fuel ld seen st t t' :
  tblocks t = tblocks t' -> textends t = textends t' -> textends t <> [] ->
  build fuel ld seen st t = build fuel ld seen st t'.
Proof.
  intros Hb He Hne. destruct fuel as [|f]; [reflexivity|]. cbn [build]. unfold stack_blocks. rewrite <- Hb, <- He.
  destruct (1 <? _); [reflexivity|]. destruct (has_dup _); [reflexivity|]. cbn [bind].
  destruct (textends t); [congruence | reflexivity].
Qed.

(* ... so a render depends on a template through these and what precedes the first extends tag *)
Lemma render_template_ext fuel sup nb L ld data t t' :
  split_extends t = split_extends t' -> tblocks t = tblocks t' -> textends t = textends t' ->
  render_template fuel sup nb L ld data t = render_template fuel sup nb L ld data t'.
Proof.
  intros Hs Hb He. unfold render_template. rewrite <- Hs. pose proof (split_extends_snd t) as Hx.
  destruct (split_extends t) as [pre [|]]; [|reflexivity]. cbn [snd] in Hx.
  rewrite (build_ext _ ld [] [] t t' Hb He); [reflexivity|]. intro H. rewrite H in Hx. discriminate.
Qed.

(* the specification does not depend on the fuel once it suffices *)
Lemma spec_node_mono sup nb chain f f' :
  (forall c body, live (spec_body f sup nb chain c body) -> spec_body f' sup nb chain c body = spec_body f sup nb chain c body) ->
  forall n c, live (spec_node sup nb chain (spec_body f sup nb chain) c n) ->
              spec_node sup nb chain (spec_body f' sup nb chain) c n = spec_node sup nb chain (spec_body f sup nb chain) c n.
Proof.
  intro IHf. induction n as [s|x|up|name req en body IHb|x items body IHb] using node_ind'; intro c;
    cbn [spec_node]; try reflexivity.
  - apply (post_agree live live_ok live_oof).
    destruct (sc_cur c) as [cur|]; [|reflexivity].
    destruct (first_def (sc_above cur) (sc_name cur)) as [[b ab]|]; [apply IHf | reflexivity].
  - destruct (match first_def chain name with Some r0 => r0 | None => _ end) as [b ab].
    destruct (bd_required b); [reflexivity | apply IHf].
  - apply (seq_res_agree live live_ok live_oof). apply Forall_forall. intros v _.
    apply (wrap_agree live live_ok live_oof). apply (seq_res_agree live live_ok live_oof).
    rewrite Forall_forall in *. intros m Hm. apply (IHb m Hm).
Qed.

Lemma spec_body_mono sup nb chain : forall f f' c body,
  f <= f' -> live (spec_body f sup nb chain c body) -> spec_body f' sup nb chain c body = spec_body f sup nb chain c body.
Proof.
  induction f as [|f IH]; intros f' c body Hle; [intro Hg; destruct (live_oof Hg)|].
  destruct f' as [|f']; [lia|]. cbn [spec_body]. apply (wrap_agree live live_ok live_oof).
  apply (seq_res_agree live live_ok live_oof). apply Forall_forall. intros n _.
  apply spec_node_mono. intros c' body'. apply IH. lia.
Qed.

Lemma spec_exec_mono sup nb chain f f' c body :
  f <= f' -> live (spec_exec f sup nb chain c body) -> spec_exec f' sup nb chain c body = spec_exec f sup nb chain c body.
Proof.
  intro Hle. destruct f as [|f]; [intro Hg; destruct (live_oof Hg)|].
  destruct f' as [|f']; [lia|]. cbn [spec_exec].
  apply (seq_res_agree live live_ok live_oof). apply Forall_forall. intros n _.
  apply spec_node_mono. intros c' body'. apply spec_body_mono. lia.
Qed.

(* a node that is, or contains under loops, a block tag *)
Fixpoint has_block (n : node) : bool :=
  match n with
  | Block _ _ _ _ => true
  | For _ _ body => existsb has_block body
  | _ => false
  end.

Lemma has_block_not_blank : forall n, has_block n = true -> node_blank n = false.
Proof.
  induction n as [s|x|up|name req en body IHb|x items body IHb] using node_ind'; cbn; try discriminate; [reflexivity|].
  intro H. apply existsb_exists in H. destruct H as (m & Hin & Hm).
  rewrite Forall_forall in IHb. specialize (IHb m Hin Hm).
  destruct (forallb node_blank body) eqn:E; [|reflexivity].
  rewrite forallb_forall in E. rewrite (E m Hin) in IHb. discriminate.
Qed.

(* plain content: text and variables *)
Definition is_plain (n : node) : bool := match n with Text _ | Var _ => true | _ => false end.
Definition plain_out (e : env) (body : list node) : str :=
  concat_str (map (fun n => match n with Text s => s | Var y => show_var e y | _ => [] end) body).

Lemma plain_no_blocks body : forallb is_plain body = true -> flat_map blocks_of_node body = [].
Proof.
  induction body as [|n r IH]; cbn; [reflexivity|]. rewrite andb_true_iff. intros [Hn Hr].
  destruct n; cbn in *; try discriminate; auto.
Qed.

Lemma plain_endblock_ok body : forallb is_plain body = true -> forallb endblock_ok_node body = true.
Proof.
  induction body as [|n r IH]; cbn; [reflexivity|]. rewrite andb_true_iff. intros [Hn Hr].
  destruct n; cbn in *; try discriminate; auto.
Qed.

Lemma plain_exec sup nb L st jump c body :
  forallb is_plain body = true -> exec_nodes sup nb L st jump c body = Ok (plain_out (c_env c) body).
Proof.
  unfold exec_nodes, plain_out. induction body as [|n r IH]; cbn [forallb]; [reflexivity|].
  rewrite andb_true_iff. intros [Hn Hr]. rewrite seq_res_cons, (IH Hr).
  destruct n; cbn in *; try discriminate; reflexivity.
Qed.

Lemma seq_res_all_ok {A} (f : A -> res str) (out : A -> str) l :
  (forall v, f v = Ok (out v)) -> seq_res f l = Ok (concat_str (map out l)).
Proof.
  intro H. induction l as [|v l IH]; [reflexivity|]. rewrite seq_res_cons, H, IH. reflexivity.
Qed.

(* a placeholder with any default as the only content of a loop in the root, overridden in the leaf *)
Definition ph_leaf (root a : str) (ov : list node) : template := [TExtends root; TNode (Block a false None ov)].
Definition ph_root (a x : str) (items : list Z) (dflt : list node) : template :=
  [TNode (For x items [Block a false None dflt])].
