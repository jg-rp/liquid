(* Scope_Iso_Proofs.v — isolation of rendered partials and macro bodies from their caller (C15). *)
From Coq Require Import String Ascii List.
From LiquidVerif Require Import Prelude PyPrims Scope Scope_Proofs.
Import ListNotations.

(* what a caller can observe of a node: the text and how it ended *)
Definition obs (o : outcome) : option (str * signal) :=
  match o with Done _ out s => Some (out, s) | Fuel => None end.

(* the copied context is a function of the ROOT globals, the string flags, the namespace and the disabled tags only *)
Lemma copy_depends_on_base c1 c2 na dis : base c1 = base c2 -> cfg c1 = cfg c2 -> copy c1 na dis = copy c2 na dis.
Proof. intros H G. unfold copy. rewrite H, G. reflexivity. Qed.

Lemma obs_back c (o : outcome) :
  obs (match o with Fuel => Fuel | Done _ out s => Done c out s end) = obs o.
Proof. destruct o; reflexivity. Qed.

Lemma obs_lift {A} (r : res A) c1 c2 k1 k2 :
  (forall a, obs (k1 a) = obs (k2 a)) -> obs (lift r c1 k1) = obs (lift r c2 k2).
Proof. intro H. destruct r; simpl; auto. Qed.

(* NON-INTERFERENCE for render: two caller contexts with the same root globals, in which the tag's arguments and its
   bound variable evaluate alike, get the same text and the same completion from the partial — whatever their
   block scopes, assigned and captured variables, counters, macros and loop state are *)
Theorem render_isolated f E name var args c1 c2 :
  base c1 = base c2 -> cfg c1 = cfg c2 ->
  eval_kwargs (e_uk E) c1 args [] = eval_kwargs (e_uk E) c2 args [] ->
  (forall p lp a, var = Some (p, lp, a) -> eval_path (e_uk E) c1 p = eval_path (e_uk E) c2 p) ->
  obs (exec (S f) E (NRender name var args) c1) = obs (exec (S f) E (NRender name var args) c2).
Proof.
  intros Hb Hg Ha Hv. cbn [exec]. unfold exec_step.
  destruct (alookup name (e_loader E)) as [body|]; [|reflexivity].
  rewrite Ha. apply obs_lift. intro na.
  rewrite (copy_depends_on_base c1 c2 na [TInclude] Hb Hg).
  destruct var as [[[p lp] alias]|].
  - rewrite (Hv p lp alias eq_refl). apply obs_lift. intro v.
    destruct (if lp then arraylike (e_uk E) v else ANot); try reflexivity; rewrite !obs_back; reflexivity.
  - rewrite !obs_back. reflexivity.
Qed.

(* literal arguments evaluate alike in every context *)
Definition literal_args (args : list (str * expr)) : Prop :=
  forall k e, In (k, e) args -> exists l, e = ELit l.

Lemma eval_kwargs_literal uk c1 c2 args acc :
  literal_args args -> eval_kwargs uk c1 args acc = eval_kwargs uk c2 args acc.
Proof.
  revert acc. induction args as [|[k e] args IH]; intros acc H; simpl; [reflexivity|].
  destruct (H k e (or_introl eq_refl)) as [l ->]. simpl. apply IH.
  intros k' e' Hin. apply (H k' e'). right. exact Hin.
Qed.

(* the purest form: with literal arguments the partial's output is a function of the root globals alone *)
Corollary render_ignores_caller_locals f E name args c1 c2 :
  base c1 = base c2 -> cfg c1 = cfg c2 -> literal_args args ->
  obs (exec (S f) E (NRender name None args) c1) = obs (exec (S f) E (NRender name None args) c2).
Proof.
  intros Hb Hg Hl. apply render_isolated; [exact Hb|exact Hg|apply eval_kwargs_literal; exact Hl|discriminate].
Qed.

(* what a partial can resolve when it starts: its arguments, then the root globals, then now/today — nothing else *)
Theorem partial_sees_only_arguments_and_globals c na dis x :
  resolve (copy c na dis) x = first_hit x (na :: base c ++ [builtin_ns]).
Proof.
  unfold resolve, copy. cbn [scopes locals gl counters first_hit alookup option_map].
  destruct (alookup x na); [reflexivity|].
  rewrite first_hit_app. destruct (first_hit x (base c)); [reflexivity|].
  cbn [first_hit]. destruct (alookup x builtin_ns); reflexivity.
Qed.

Theorem call_isolated f E name kws c1 c2 :
  base c1 = base c2 -> cfg c1 = cfg c2 ->
  alookup name (macros c1) = alookup name (macros c2) ->
  (forall ps body, alookup name (macros c1) = Some (ps, body) ->
     macro_namespace (e_uk E) c1 ps kws = macro_namespace (e_uk E) c2 ps kws) ->
  obs (exec (S f) E (NCall name kws) c1) = obs (exec (S f) E (NCall name kws) c2).
Proof.
  intros Hb Hg Hm Hn. cbn [exec]. unfold exec_step. rewrite <- Hm.
  destruct (alookup name (macros c1)) as [[ps body]|] eqn:Hl.
  - rewrite (Hn ps body eq_refl). apply obs_lift. intro nm.
    rewrite (copy_depends_on_base c1 c2 nm [TInclude; TBlock] Hb Hg). rewrite !obs_back. reflexivity.
  - apply obs_lift. intro t. reflexivity.
Qed.

(* a macro body called with literal keyword arguments (and literal or absent defaults) ignores the caller's locals *)
Definition literal_params (ps : list (str * option expr)) : Prop :=
  forall p e, In (p, Some e) ps -> exists l, e = ELit l.

Lemma last_kw_in k kws e : last_kw k kws = Some e -> exists k', In (k', e) kws.
Proof.
  induction kws as [|[k' e'] kws IH]; simpl; [discriminate|].
  destruct (last_kw k kws) eqn:E.
  - intro H; inversion H; subst. destruct (IH eq_refl) as [k2 Hin]. exists k2. right. exact Hin.
  - destruct (str_eqb k k'); [|discriminate]. intro H; inversion H; subst. exists k'. left. reflexivity.
Qed.

Lemma bind_params_literal uk c1 c2 ps kws acc :
  literal_args kws -> literal_params ps -> bind_params uk c1 ps kws acc = bind_params uk c2 ps kws acc.
Proof.
  intros Hk. revert acc. induction ps as [|[p d] ps IH]; intros acc Hp; simpl; [reflexivity|].
  assert (Hp' : literal_params ps) by (intros p' e' Hin; apply (Hp p' e'); right; exact Hin).
  destruct (last_kw p kws) as [e|] eqn:El.
  - destruct (last_kw_in _ _ _ El) as [k' Hin]. destruct (Hk k' e Hin) as [l ->]. simpl. apply IH. exact Hp'.
  - destruct d as [e|].
    + destruct (Hp p e (or_introl eq_refl)) as [l ->]. simpl. apply IH. exact Hp'.
    + simpl. apply IH. exact Hp'.
Qed.

Lemma macro_namespace_literal uk c1 c2 ps kws :
  literal_args kws -> literal_params ps -> macro_namespace uk c1 ps kws = macro_namespace uk c2 ps kws.
Proof.
  intros Hk Hp. unfold macro_namespace.
  assert (Hf : literal_args (filter (fun kv => negb (has_param (fst kv) ps)) kws))
    by (intros k e Hin; apply filter_In in Hin; apply (Hk k e), Hin).
  rewrite (eval_kwargs_literal uk c1 c2 _ [] Hf).
  destruct (eval_kwargs uk c2 _ []); simpl; try reflexivity. apply bind_params_literal; assumption.
Qed.

(* include is disabled in partials and macro bodies *)
Theorem include_disabled_raises f E name var args c :
  is_disabled TInclude c = true ->
  exec (S f) E (NInclude name var args) c = Done c [] (Raise EDisabledTag).
Proof. intro H. cbn [exec]. unfold exec_step. rewrite H. reflexivity. Qed.

(* the disabled tags never change inside a context: whatever was executed before, however deeply nested in blocks *)
Lemma disabled_preserved_seq fuel E l c c' o s :
  seq_nodes (exec fuel E) l c = Done c' o s -> is_disabled TInclude c' = is_disabled TInclude c.
Proof.
  intro H. apply same_frame_is_disabled, (ends_done _ _ _ _ _ (seq_nodes_frame _ l c (exec_frame fuel E)) H).
Qed.

(* the specification of `render ... for`: each item rendered by F on its own, the texts concatenated, the first abnormal
   completion ends it *)
Fixpoint each_item (F : val -> Z -> outcome) (items : list val) (i : Z) : option (str * signal) :=
  match items with
  | [] => Some ([], Normal)
  | v :: r =>
      match F v i with
      | Fuel => None
      | Done _ o Normal => match each_item F r (i + 1)%Z with Some (o2, s2) => Some (o ++ o2, s2) | None => None end
      | Done _ o s => Some (o, s)
      end
  end.

Lemma loop_items_each_item F items : forall i c,
  obs (loop_items false (fun _ v j => F v j) items i c) = each_item F items i.
Proof.
  induction items as [|v items IH]; intros i c; simpl; [reflexivity|].
  destruct (F v i) as [c1 o1 s1|]; [|reflexivity].
  specialize (IH (i + 1)%Z c1).
  destruct s1; try reflexivity.
  destruct (loop_items false (fun _ v0 j => F v0 j) items (i + 1)%Z c1) as [c2 o2 s2|]; simpl in *; rewrite <- IH; reflexivity.
Qed.

(* overridden inheritance blocks: the block-scoped copy keeps the ROOT globals (and the flags) of the template being
   extended, so render and call from inside it start from what they start from at the top level of that template *)
Lemma copy_block_keeps_base c : base (copy_block c) = base c /\ cfg (copy_block c) = cfg c.
Proof. split; reflexivity. Qed.

(* the statements that fail, each for the code it names, and their witnesses; Props/C15.v refutes them *)

(* a context and a name for the refutation witnesses *)
Definition ctx0 : ctx := Ctx [] [] [[]] [[]] [] [] [] None default_flags.
Definition kx : str := slit "x".

(* the recorded defect: before the repair a nested partial also saw the ENCLOSING partial's arguments.
   Full statement, old code: what a nested partial resolves depends only on its own arguments and the root globals *)
Definition only_explicit_args_old : Prop :=
  forall c outer1 outer2 inner x,
    resolve (nested_partial_ctx_old c outer1 inner) x = resolve (nested_partial_ctx_old c outer2 inner) x.

Definition render_for_independent_old : Prop :=
  forall render1 key na items c0,
    obs (render_loop_old render1 key na items c0) =
    each_item (fun itm i => render1 (set_gl_head c0 (dict_set key itm (dict_set s_forloop (forloop_drop i (zlen items)) na)))) items 0%Z.

(* the partial that refutes the old loop: with one shared context the second item saw what the first one assigned *)
Definition leak_env : env :=
  Env MStrict UDefault [(slit "p", [NText (slit "["); NOut (FPlain (EPath (Path (slit "seen") [])) []); NText (slit "]");
                                    NAssign (slit "seen") (FPlain (ELit (LInt 1)) []); NIncr (slit "n")])] no_filters.
Definition leak_render1 : ctx -> outcome :=
  run_template MStrict true false (exec 5 leak_env)
    (match alookup (slit "p") (e_loader leak_env) with Some b => b | None => [] end).

(* full statement, seeded variant (base_globals not propagated in the block-scoped branch): there a partial rendered from
   inside the block resolves the base template's local variables *)
Definition render_in_block_isolated_old : Prop :=
  forall c na dis x, resolve (copy (copy_block_old c) na dis) x = first_hit x (na :: base c ++ [builtin_ns]).
