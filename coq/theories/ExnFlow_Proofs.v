(* C02 -- proofs about the exception-flow model.
   The development is compositional: every helper is given the SET of exception classes it can raise
   ([errs_in]); every handler (decorator, Filter.evaluate, the per-node handler) is a set transformer.
   A flag h says whether an int beyond the digit limit may be present: with h = true the result is the
   full theorem (only that ValueError escapes), with h = false the guarded one (nothing escapes). *)
From LiquidVerif Require Import Prelude ExnFlow.
Local Open Scope Z_scope.

(* OutOfFuel is excluded too *)
Definition errs_in {A} (ok : exn -> bool) (r : res A) : Prop :=
  match r with Ok _ => True | Err e => ok e = true | OutOfFuel => False end.

Definition isV (e : exn) := match e with EValueError => true | _ => false end.
Definition isT (e : exn) := match e with ETypeError => true | _ => false end.
Definition isM (e : exn) := match e with ETypeError | EValueError | EOverflowError | EArithmeticError => true | _ => false end.
Definition isL (e : exn) := match e with EKeyError | EIndexError | ETypeError => true | _ => false end.

(* beside the Liquid errors: LV h the digit-limit ValueError when h; LVT h also TypeError (converted by every
   decorator); LM what math_filter converts *)
Definition LQ (e : exn) := is_liquid e.
Definition LV (h : bool) (e : exn) := is_liquid e || (h && isV e).
Definition LVT (h : bool) (e : exn) := LV h e || isT e.
Definition LM (e : exn) := is_liquid e || isM e.
Definition LT (e : exn) := is_liquid e || isT e.
Definition LTV (e : exn) := is_liquid e || isT e || isV e.
Definition LLK (e : exn) := is_liquid e || isL e.
Definition LA (e : exn) := is_liquid e || match e with EArithmeticError => true | _ => false end.

Lemma isT_inv e : isT e = true -> e = ETypeError.
Proof. destruct e; try discriminate. reflexivity. Qed.

Lemma errs_in_bind {A B} ok (r : res A) (k : A -> res B) :
  errs_in ok r -> (forall a, errs_in ok (k a)) -> errs_in ok (bind r k).
Proof. destruct r; simpl; auto. Qed.

Lemma errs_in_map {A B} ok (r : res A) (f : A -> B) : errs_in ok r -> errs_in ok (do a <- r; Ok (f a)).
Proof. destruct r; simpl; auto. Qed.

Lemma errs_in_mono {A} (ok ok' : exn -> bool) (r : res A) :
  (forall e, ok e = true -> ok' e = true) -> errs_in ok r -> errs_in ok' r.
Proof. destruct r; simpl; auto. Qed.

Lemma convert_errs {A} catch to (ok ok' : exn -> bool) (r : res A) :
  errs_in ok r -> ok' to = true -> (forall e, ok e = true -> catch e = false -> ok' e = true) ->
  errs_in ok' (convert catch to r).
Proof.
  destruct r as [a|e|]; simpl; auto. intros H Hto Hrest. destruct (catch e) eqn:C; simpl; auto.
Qed.

Lemma LQ_in_LV {A} h (r : res A) : errs_in LQ r -> errs_in (LV h) r.
Proof. apply errs_in_mono. unfold LQ, LV. intros e ->. reflexivity. Qed.
Lemma LV_in_LVT {A} h (r : res A) : errs_in (LV h) r -> errs_in (LVT h) r.
Proof. apply errs_in_mono. unfold LVT. intros e ->. reflexivity. Qed.
Lemma LQ_in_LVT {A} h (r : res A) : errs_in LQ r -> errs_in (LVT h) r.
Proof. intro H. apply LV_in_LVT, LQ_in_LV, H. Qed.
Lemma LQ_in_LM {A} (r : res A) : errs_in LQ r -> errs_in LM r.
Proof. apply errs_in_mono. unfold LQ, LM. intros e ->. reflexivity. Qed.
Lemma LT_in_LVT {A} h (r : res A) : errs_in LT r -> errs_in (LVT h) r.
Proof.
  apply errs_in_mono. unfold LT, LVT, LV. intros e He.
  apply orb_true_iff in He. destruct He as [->| ->]; [reflexivity|apply orb_true_r].
Qed.

Lemma arity_LVT {A} h : errs_in (LVT h) (@arity_error A).
Proof. apply LT_in_LVT. reflexivity. Qed.

(* induction on values: lists and hashes nest *)
Section ValueInd.
  Variable P : value -> Prop.
  Hypothesis HNone : P VNone.
  Hypothesis HUndef : P VUndef.
  Hypothesis HBool : forall b, P (VBool b).
  Hypothesis HInt : forall z, P (VInt z).
  Hypothesis HFloat : forall f, P (VFloat f).
  Hypothesis HStr : forall s n, P (VStr s n).
  Hypothesis HList : forall l, Forall P l -> P (VList l).
  Hypothesis HDict : forall ks vs, Forall P vs -> P (VDict ks vs).
  Hypothesis HRange : forall lo n, P (VRange lo n).
  Fixpoint value_ind' (v : value) : P v :=
    match v with
    | VNone => HNone | VUndef => HUndef | VBool b => HBool b | VInt z => HInt z | VFloat f => HFloat f
    | VStr s n => HStr s n
    | VList l => HList l ((fix go (l : list value) : Forall P l :=
                             match l with [] => Forall_nil P | x :: r => Forall_cons x (value_ind' x) (go r) end) l)
    | VDict ks vs => HDict ks vs ((fix go (l : list value) : Forall P l :=
                             match l with [] => Forall_nil P | x :: r => Forall_cons x (value_ind' x) (go r) end) vs)
    | VRange lo n => HRange lo n
    end.
End ValueInd.

(* the digit limit is a bound on the absolute value *)
Lemma huge_between lo hi z : huge lo = false -> huge hi = false -> lo <= z <= hi -> huge z = false.
Proof. unfold huge. generalize huge_bound. intro B. rewrite !Z.leb_gt. lia. Qed.

(* the big constants stay folded *)
Local Opaque huge too_big_for_float ssize_bound.

(* NH h v: either huge ints are allowed (h) or v contains none *)
Definition NH (h : bool) (v : value) : Prop := h = true \/ has_huge v = false.

Lemma NH_true v : NH true v.
Proof. left. reflexivity. Qed.

Lemma NH_trivial h v : has_huge v = false -> NH h v.
Proof. intro; right; assumption. Qed.

Lemma existsb_false_Forall {A} (f : A -> bool) l : existsb f l = false <-> Forall (fun x => f x = false) l.
Proof.
  induction l; simpl; split; intro H; auto.
  - apply orb_false_iff in H. destruct H. constructor; auto. apply IHl; auto.
  - inversion H; subst. apply orb_false_iff. split; auto. apply IHl; auto.
Qed.

Lemma has_huge_range lo n : has_huge (VRange lo n) = false ->
  huge lo = false /\ huge (lo + Z.of_nat n) = false /\ huge (lo + Z.of_nat n - 1) = false.
Proof. simpl. rewrite !orb_false_iff. tauto. Qed.

Lemma has_huge_str_fails v : has_huge v = false -> str_fails v = false.
Proof.
  induction v using value_ind'; intro Hh; try reflexivity; simpl in *.
  - exact Hh.
  - rewrite existsb_false_Forall in *. rewrite Forall_forall in *. auto.
  - rewrite existsb_false_Forall in *. rewrite Forall_forall in *. auto.
  - apply has_huge_range in Hh. apply orb_false_iff. tauto.
Qed.

(* the guard of a list or of a hash is the guard of its items *)
Lemma Forall_NH h l : Forall (NH h) l <-> h = true \/ existsb has_huge l = false.
Proof.
  rewrite existsb_false_Forall. destruct h.
  - split; [left; reflexivity|]. intros _. apply Forall_forall. intros; apply NH_true.
  - split; intro H; [right|destruct H as [H|H]; [discriminate|]]; (eapply Forall_impl; [|exact H]).
    + intros a [E|E]; [discriminate|exact E].
    + apply NH_trivial.
Qed.

Lemma Forall_NH_true l : Forall (NH true) l.
Proof. apply Forall_NH. left. reflexivity. Qed.

Lemma NH_items h l : NH h (VList l) -> Forall (NH h) l.
Proof. apply Forall_NH. Qed.

Lemma NH_list h l : Forall (NH h) l -> NH h (VList l).
Proof. apply Forall_NH. Qed.

Lemma NH_dict_vals h ks vs : NH h (VDict ks vs) -> Forall (NH h) vs.
Proof. apply Forall_NH. Qed.

Lemma Forall_NH_2 h a b r : Forall (NH h) (a :: b :: r) -> NH h b.
Proof. intro H. exact (Forall_inv (Forall_inv_tail H)). Qed.

Lemma py_str_errs h v : NH h v -> errs_in (LV h) (py_str v).
Proof.
  unfold py_str. intros [->|H].
  - destruct (str_fails v); simpl; auto.
  - rewrite (has_huge_str_fails _ H). exact I.
Qed.

Lemma py_str_LVT h v : NH h v -> errs_in (LVT h) (py_str v).
Proof. intro. apply LV_in_LVT, py_str_errs. assumption. Qed.

Lemma all_str_errs h l : Forall (NH h) l -> errs_in (LVT h) (all_str l).
Proof.
  induction 1; simpl; auto. apply errs_in_bind. apply py_str_LVT; auto. auto.
Qed.

Lemma to_liquid_string_errs h r : NH h r -> errs_in (LV h) (to_liquid_string r).
Proof.
  intro Hr. destruct r; try (apply py_str_errs; assumption). simpl.
  destruct (huge lo || huge (lo + Z.of_nat len - 1)) eqn:E; [|exact I].
  destruct Hr as [->|Hr]; [reflexivity|]. apply has_huge_range in Hr. destruct Hr as (H1 & _ & H3).
  rewrite H1, H3 in E. discriminate.
Qed.

Lemma all_out_errs h l : Forall (NH h) l -> errs_in (LV h) (all_out l).
Proof. induction 1; simpl; auto. apply errs_in_bind; [apply to_liquid_string_errs; assumption|intro; assumption]. Qed.

(* flatten and the sequence coercion keep the guard *)
Lemma flatten_NH h n : forall l, Forall (NH h) l -> Forall (NH h) (flatten n l).
Proof.
  induction n as [|n IH]; intros l H.
  - induction H; simpl; auto; try (destruct x; constructor; auto).
  - induction H as [|x r Hx Hr IHr]; [constructor|].
    change (flatten (S n) (x :: r)) with (match x with VList inner => flatten n inner ++ flatten (S n) r | _ => x :: flatten (S n) r end).
    destruct x; try (constructor; assumption).
    apply Forall_app. split; auto. apply IH. apply NH_items. assumption.
Qed.

Lemma range_items_not_huge : forall n lo, huge lo = false -> huge (lo + Z.of_nat n) = false ->
  Forall (fun v => has_huge v = false) (range_items lo n).
Proof.
  induction n as [|n IH]; intros lo H1 H2; simpl; constructor; [exact H1|]. apply IH.
  - apply (huge_between lo (lo + Z.of_nat (S n))); [exact H1|exact H2|lia].
  - replace (lo + 1 + Z.of_nat n) with (lo + Z.of_nat (S n)) by lia. exact H2.
Qed.

Lemma range_items_NH h n lo : NH h (VRange lo n) -> Forall (NH h) (range_items lo n).
Proof.
  intros [->|H]. { apply Forall_forall. intros; apply NH_true. }
  apply has_huge_range in H. destruct H as (H1 & H2 & _).
  eapply Forall_impl; [|apply (range_items_not_huge n lo H1 H2)]. apply NH_trivial.
Qed.

Lemma coerce_seq_NH h v : NH h v -> Forall (NH h) (coerce_seq v).
Proof.
  intro H. destruct v; cbn [coerce_seq]; try (constructor; [assumption|constructor]).
  - constructor.
  - apply flatten_NH. apply NH_items. assumption.
  - apply range_items_NH. assumption.
Qed.

(* the conversion helpers, by the class of the value *)
Lemma to_int_errs v : errs_in LTV (to_int all_fixed v).
Proof. destruct v as [| | | |[]|[]| | |]; reflexivity || exact I. Qed.

Lemma int_arg_errs v d : errs_in LT (int_arg all_fixed v d).
Proof. destruct v as [| | | |[]|[]| | |], d; reflexivity || exact I. Qed.

Lemma num_arg_errs v d : errs_in LQ (num_arg all_fixed v d).
Proof. destruct v as [| | | | |[]| | |], d; reflexivity || exact I. Qed.

Lemma decimal_arg0_errs v : errs_in LQ (decimal_arg0 all_fixed v).
Proof. destruct v as [| | | | |[]| | |]; reflexivity || exact I. Qed.

Lemma slice_arg_errs a : errs_in LQ (slice_arg all_fixed a).
Proof. destruct a as [| | | | |[]| | |]; reflexivity || exact I. Qed.

Lemma loop_int_errs a : errs_in LQ (loop_int all_fixed a).
Proof. destruct a as [| | | |[]|[]| | |]; reflexivity || exact I. Qed.

Lemma to_int_or_errs a d : errs_in LQ (to_int_or all_fixed true a d).
Proof. destruct a as [| | | |[]|[]| | |]; reflexivity || exact I. Qed.

(* liquid_filter and Filter.evaluate: TypeError becomes a Liquid error *)
Lemma convert_type_error {A} h to (r : res A) :
  is_liquid to = true -> errs_in (LVT h) r -> errs_in (LV h) (convert is_type_error to r).
Proof.
  intros Hto H. eapply convert_errs; [exact H|unfold LV; rewrite Hto; reflexivity|].
  intros e He C. unfold LVT in He. apply orb_true_iff in He. destruct He as [He|He]; [exact He|].
  destruct e; discriminate.
Qed.

Lemma liquid_filter_errs {A} h (r : res A) : errs_in (LVT h) r -> errs_in (LVT h) (liquid_filter r).
Proof. intro H. apply LV_in_LVT, convert_type_error; [reflexivity|exact H]. Qed.

Lemma string_filter_errs {A} h v (body : res A) : NH h v -> errs_in (LVT h) body -> errs_in (LVT h) (string_filter v body).
Proof.
  intros Hv Hb. pose proof (liquid_filter_errs h body Hb) as HL.
  destruct v; simpl; try exact HL; (apply errs_in_bind; [apply py_str_LVT; assumption|intro; exact HL]).
Qed.

Lemma math_filter_errs h v body : (forall n, errs_in LM (body n)) -> errs_in (LVT h) (math_filter all_fixed v body).
Proof.
  intro Hb. apply LQ_in_LVT. unfold math_filter. apply errs_in_bind. apply num_arg_errs.
  intro n. eapply convert_errs; [apply Hb|reflexivity|].
  intros e He C. destruct e; try discriminate; reflexivity.
Qed.

(* a body that takes no argument *)
Lemma nullary_errs {A} h (args : list value) (r : res A) :
  errs_in (LVT h) r -> errs_in (LVT h) (match args with [] => r | _ => arity_error end).
Proof. intro H. destruct args; [exact H|apply arity_LVT]. Qed.

Lemma with_other_errs args k : (forall o, errs_in LM (k o)) -> errs_in LM (with_other all_fixed args k).
Proof.
  intro Hk. unfold with_other. destruct args as [|a [|b r]]; try reflexivity.
  apply errs_in_bind; [apply LQ_in_LM, num_arg_errs|exact Hk].
Qed.

Lemma math_unary_errs h v (args : list value) (k : num -> res value) :
  (forall n, errs_in LM (k n)) -> errs_in (LVT h) (math_filter all_fixed v (fun n => match args with [] => k n | _ => arity_error end)).
Proof. intro Hk. apply math_filter_errs. intro n. destruct args; [apply Hk|reflexivity]. Qed.

Lemma math_binary_errs h v args (k : num -> num -> res value) :
  (forall n o, errs_in LM (k n o)) -> errs_in (LVT h) (math_filter all_fixed v (fun n => with_other all_fixed args (k n))).
Proof. intro Hk. apply math_filter_errs. intro n. apply with_other_errs, Hk. Qed.

Lemma num_str_errs n : errs_in LM (num_str n).
Proof. unfold num_str, py_str. destruct (str_fails _); simpl; auto. Qed.

Lemma dec_add_errs a b : errs_in LM (dec_add a b).
Proof. destruct a, b; reflexivity || exact I. Qed.
Lemma dec_sub_errs a b : errs_in LM (dec_sub a b).
Proof. apply dec_add_errs. Qed.
Lemma dec_mul_errs a b : errs_in LM (dec_mul a b).
Proof. destruct a, b; reflexivity || exact I. Qed.
Lemma dec_div_errs a b : errs_in LM (dec_div a b).
Proof. destruct a, b; reflexivity || exact I. Qed.
Lemma dec_mod_errs i a b : errs_in LM (dec_mod i a b).
Proof. destruct i, a, b; reflexivity || exact I. Qed.

(* Decimal(str(n)), Decimal(str(o)), then the operation *)
Lemma via_decimal_errs {A} n o (r : res A) : errs_in LM r -> errs_in LM (do _ <- num_str n; do _ <- num_str o; r).
Proof. intro H. apply errs_in_bind; [apply num_str_errs|intro]. apply errs_in_bind; [apply num_str_errs|intro; exact H]. Qed.

Lemma decimal_binop_errs op f n o : (forall a b, errs_in LM (op a b)) -> errs_in LM (decimal_binop op f n o).
Proof.
  intro Hop. unfold decimal_binop. destruct (intlike n), (intlike o); try exact I;
  (apply via_decimal_errs, errs_in_map, Hop).
Qed.

Lemma divided_by_errs n o : errs_in LM (divided_by n o).
Proof.
  unfold divided_by. destruct (intlike n), (intlike o); try (destruct (_ =? 0); reflexivity || exact I);
  (apply via_decimal_errs; destruct (dec_div_by_zero _ _); [reflexivity|];
   apply errs_in_map, dec_div_errs).
Qed.

Lemma modulo_errs i n o : errs_in LM (modulo i n o).
Proof.
  unfold modulo. destruct (intlike n), (intlike o); try (destruct (_ =? 0); reflexivity || exact I);
  (apply via_decimal_errs, errs_in_map, dec_mod_errs).
Qed.

Lemma round0_errs n : errs_in LM (round0 n).
Proof. destruct n as [| |[]]; reflexivity || exact I. Qed.

Lemma round_nd_errs n a : errs_in LM (round_nd all_fixed n a).
Proof.
  unfold round_nd. pose proof (num_arg_errs a None) as Ha. pose proof (round0_errs n) as Hr.
  destruct (num_arg all_fixed a None) as [nd|e|]; simpl in Ha; [| |contradiction].
  - assert (Hd : forall d, errs_in LM (if d <? 0 then Ok (VInt 0) else if d =? 0 then round0 n
                                        else Ok match n with NF _ => some_float | _ => value_of_num n end)).
    { intro d. destruct (d <? 0); [exact I|]. destruct (d =? 0); [exact Hr|exact I]. }
    destruct nd as [b|z|f]; cbn [bind]; try apply Hd.
    destruct f; cbn [py_float_to_int bind]; try apply Hd; reflexivity.
  - unfold LQ in Ha. destruct e; try discriminate Ha; try exact Hr; exact Ha.
Qed.

Lemma round_filter_errs args n : errs_in LM (round_filter all_fixed n args).
Proof.
  unfold round_filter. destruct args as [|a [|b r]].
  - apply round0_errs.
  - destruct a; try apply round_nd_errs; apply round0_errs.
  - destruct a; reflexivity.
Qed.

Lemma truncate_num_errs h a : errs_in (LVT h) (truncate_num all_fixed a).
Proof.
  apply LT_in_LVT. destruct a as [[| | | |[]|[]| | |]|]; reflexivity || exact I.
Qed.

Lemma truncate_go_errs h a b : match b with None => True | Some e => NH h e end -> errs_in (LVT h) (truncate_go all_fixed a b).
Proof.
  intro Hb. unfold truncate_go. apply errs_in_bind; [apply truncate_num_errs|intro].
  apply errs_in_map. destruct b; [apply py_str_LVT; assumption|exact I].
Qed.

Lemma truncate_errs h args : Forall (NH h) args -> errs_in (LVT h) (truncate all_fixed args).
Proof.
  intro Ha. unfold truncate. destruct args as [|a [|b [|c r]]]; try (apply truncate_go_errs; exact I).
  - apply truncate_go_errs. eapply Forall_NH_2, Ha.
  - apply arity_LVT.
Qed.

Lemma slice_args_errs h v start len : errs_in (LVT h) (slice_args all_fixed v start len).
Proof.
  unfold slice_args. apply errs_in_bind; [apply LQ_in_LVT, slice_arg_errs|intro].
  apply errs_in_map. unfold slice_len.
  destruct len as [l|]; [|exact I]. destruct l; try (apply LQ_in_LVT, slice_arg_errs); exact I.
Qed.

Lemma slice_go_errs h v start len : NH h v -> errs_in (LVT h) (slice_go all_fixed v start len).
Proof.
  intro Hv. unfold slice_go. apply errs_in_bind.
  - destruct v; try exact I; apply py_str_LVT, Hv.
  - intros _. destruct start; try apply slice_args_errs. reflexivity.
Qed.

Lemma slice_errs h v args : NH h v -> errs_in (LVT h) (slice all_fixed v args).
Proof.
  intro Hv. unfold slice. destruct args as [|a [|b [|c r]]]; try apply arity_LVT; apply slice_go_errs, Hv.
Qed.

Lemma dnum_add_errs acc d : errs_in LA (dnum_add all_fixed acc d).
Proof.
  assert (Hadd : forall a b, errs_in LA (do r <- dec_add a b; Ok (DD r))).
  { intros a b. destruct a, b; reflexivity || exact I. }
  destruct acc, d; try exact I; apply Hadd.
Qed.

Lemma sum_items_errs : forall l acc, errs_in LA (sum_items all_fixed acc l).
Proof.
  induction l as [|x r IH]; intro acc; simpl; auto.
  apply errs_in_bind.
  - eapply errs_in_mono; [|apply decimal_arg0_errs]. unfold LQ, LA. intros e ->. reflexivity.
  - intro d. apply errs_in_bind; [apply dnum_add_errs|intro; apply IH].
Qed.

Lemma sum_filter_errs v : errs_in LQ (sum_filter all_fixed v).
Proof.
  unfold sum_filter. pose proof (sum_items_errs (coerce_seq v) (DI 0)) as H.
  destruct (sum_items all_fixed (DI 0) (coerce_seq v)) as [[z|d]|e|]; simpl in *; auto.
  destruct e; simpl in *; try discriminate H; reflexivity.
Qed.

Lemma py_getitem_errs o k : errs_in isL (py_getitem o k).
Proof.
  destruct o; try reflexivity; try exact I; cbn [py_getitem].
  - destruct (int_key k); [|reflexivity]. destruct (in_bounds _ _); reflexivity || exact I.
  - destruct (int_key k); [|reflexivity]. destruct (index_list _ _); reflexivity || exact I.
  - destruct (negb (is_hashable k)); [reflexivity|]. destruct k as [| | | | |[]| | |]; try reflexivity.
    destruct (dict_get _ _ _); reflexivity || exact I.
  - destruct (int_key k); [|reflexivity]. destruct (in_bounds _ _); reflexivity || exact I.
Qed.

Lemma lookup_prop_errs x key : errs_in isT (lookup_prop all_fixed x key).
Proof.
  unfold lookup_prop. pose proof (py_getitem_errs x key) as H.
  destruct (py_getitem x key) as [a|e|]; simpl in *; auto. destruct e; try discriminate H; exact I || reflexivity.
Qed.

Lemma compact_key_errs key : forall l, errs_in isT (compact_key all_fixed key l).
Proof.
  induction l as [|x r IH]; simpl; auto.
  apply errs_in_bind; [apply lookup_prop_errs|intro]. apply errs_in_map, IH.
Qed.

Lemma uniq_key_errs h key : NH h key -> forall l, Forall (NH h) l -> errs_in (LVT h) (uniq_key all_fixed key l).
Proof.
  intros Hk l Hl. induction Hl as [|x r Hx Hr IH]; simpl; auto.
  unfold uniq_prop. pose proof (py_getitem_errs x key) as H.
  destruct (py_getitem x key) as [a|e|]; simpl in *; auto.
  destruct e; try discriminate H; try exact IH.
  apply errs_in_bind; [apply py_str_LVT; assumption|intro].
  apply errs_in_bind; [apply py_str_LVT; assumption|intro]. reflexivity.
Qed.

Lemma json_walk_errs h v : NH h v -> errs_in (LVT h) (json_walk v).
Proof.
  assert (Hitems : forall l, Forall (fun v => NH h v -> errs_in (LVT h) (json_walk v)) l -> Forall (NH h) l ->
                   errs_in (LVT h) (json_walk (VList l))).
  { intros l H Hl. simpl. induction H as [|x r Hx Hr IH]; [exact I|]. inversion Hl; subst.
    apply errs_in_bind; [apply Hx; assumption|intro]. apply IH; assumption. }
  induction v using value_ind'; intro Hv; try exact I; try apply arity_LVT.
  - (* int *) simpl. destruct (huge z) eqn:E; [|exact I]. destruct Hv as [->|Hv]; [reflexivity|]. simpl in Hv. congruence.
  - (* list *) apply Hitems; [exact H|apply NH_items, Hv].
  - (* a hash is walked as the list of its values *) apply (Hitems vs H), (NH_dict_vals h ks vs Hv).
Qed.

Lemma json_indent_errs h indent : errs_in (LVT h) (json_indent all_fixed indent).
Proof.
  unfold json_indent. destruct indent as [a|]; [|exact I]. destruct (py_truthy a); [|exact I].
  apply errs_in_map, LT_in_LVT, int_arg_errs.
Qed.

Lemma json_encode_errs h v n : NH h v -> errs_in (LVT h) (json_encode all_fixed v n).
Proof.
  intro Hv. unfold json_encode. apply errs_in_bind.
  - destruct n as [z|]; [|exact I]. destruct ((ssize_bound <=? z) || (z <? - ssize_bound)); [reflexivity|exact I].
  - intro. apply errs_in_map, json_walk_errs, Hv.
Qed.

Lemma json_go_errs h v indent : NH h v -> errs_in (LVT h) (json_go all_fixed v indent).
Proof.
  intro Hv. unfold json_go. apply errs_in_bind; [apply json_indent_errs|intro n].
  destruct v; try (apply json_encode_errs, Hv); exact I.
Qed.

Lemma json_filter_errs h v args : NH h v -> errs_in (LVT h) (json_filter all_fixed v args).
Proof.
  intro Hv. unfold json_filter. destruct args as [|a [|b r]]; try apply arity_LVT; apply json_go_errs, Hv.
Qed.

(* what a lookup returns keeps the guard *)
Lemma dict_get_NH h id : forall ks vs x, Forall (NH h) vs -> dict_get id ks vs = Some x -> NH h x.
Proof.
  induction ks as [|k ks IH]; intros vs x Hvs E; simpl in E; [discriminate|].
  destruct vs as [|v0 vs']; [discriminate|]. inversion Hvs; subst.
  destruct (N.eqb id k); [inversion E; subst; assumption|eapply IH; eassumption].
Qed.

Lemma index_list_NH h (l : list value) z x : Forall (NH h) l -> index_list l z = Some x -> NH h x.
Proof.
  intros Hl E. unfold index_list in E. destruct (_ || _); [discriminate|].
  apply nth_error_In in E. rewrite Forall_forall in Hl. auto.
Qed.

Lemma py_getitem_NH h o k x : NH h o -> py_getitem o k = Ok x -> NH h x.
Proof.
  intros Ho E. destruct o; simpl in E; try discriminate.
  - inversion E; subst. exact Ho.
  - destruct (int_key k); [|discriminate]. destruct (in_bounds len z); inversion E; subst. right; reflexivity.
  - destruct (int_key k); [|discriminate]. destruct (index_list items z) eqn:Ei; inversion E; subst.
    eapply index_list_NH; [apply NH_items; exact Ho|exact Ei].
  - destruct (negb (is_hashable k)); [discriminate|]. destruct k as [| | | | |[]| | |]; try discriminate.
    destruct (dict_get id keys vals) eqn:Ed; inversion E; subst.
    eapply dict_get_NH; [eapply NH_dict_vals; exact Ho|exact Ed].
  - destruct (int_key k); [|discriminate]. destruct (in_bounds (Z.of_nat len) z); inversion E; subst.
    destruct Ho as [Ho|Ho]; [left; exact Ho|]. right. apply has_huge_range in Ho. apply Ho.
Qed.

Lemma map_item_NH h key x y : NH h x -> map_item key x = Ok (Some y) -> NH h y.
Proof.
  intros Hx E. unfold map_item in E. destruct x; try discriminate;
  (destruct (py_getitem _ key) eqn:Eg; inversion E; subst; [eapply py_getitem_NH; [|exact Eg]; assumption|right; reflexivity]).
Qed.

Lemma map_items_NH h key : forall l keys, Forall (NH h) l -> map_items key l = Ok (Some keys) -> Forall (NH h) keys.
Proof.
  induction l as [|x r IH]; intros keys Hl E; simpl in E.
  - inversion E; subst. constructor.
  - inversion Hl; subst.
    destruct (map_item key x) as [[y|]|e|] eqn:Ex; simpl in E; try discriminate.
    destruct (map_items key r) as [[l'|]|e|] eqn:Er; simpl in E; try discriminate.
    inversion E; subst. constructor; [eapply map_item_NH; eassumption|eapply IH; eauto].
Qed.

Lemma map_item_errs key x : errs_in isT (map_item key x).
Proof.
  pose proof (py_getitem_errs x key) as H. unfold map_item.
  destruct x; try exact I; try reflexivity; (destruct (py_getitem _ key); [exact I|exact I|exact H]).
Qed.

Lemma map_items_errs key : forall l, errs_in isT (map_items key l).
Proof.
  induction l as [|x r IH]; simpl; [exact I|].
  apply errs_in_bind; [apply map_item_errs|]. intros [y|]; [|exact I].
  apply errs_in_map, IH.
Qed.

Section FilterSites.
  Variables (h : bool) (p : prims) (v : value) (args : list value).
  Hypothesis Hv : NH h v.
  Hypothesis Ha : Forall (NH h) args.

  Lemma join_site_errs : errs_in (LVT h) (eval_filter all_fixed p SJoin v args).
  Proof.
    cbn [eval_filter]. apply liquid_filter_errs. pose proof (all_str_errs h _ (coerce_seq_NH h v Hv)) as Hc.
    destruct args as [|a [|b r]]; try apply arity_LVT.
    - apply errs_in_map, Hc.
    - apply errs_in_bind; [apply py_str_LVT, (Forall_inv Ha)|intro].
      apply errs_in_map, Hc.
  Qed.

  Lemma compact_site_errs : errs_in (LVT h) (eval_filter all_fixed p SCompact v args).
  Proof.
    cbn [eval_filter]. apply liquid_filter_errs.
    destruct args as [|key [|b r]]; [exact I| |destruct key; apply arity_LVT].
    assert (Hk : errs_in (LVT h) (match compact_key all_fixed key (coerce_seq v) with
                                  | Err ETypeError => do _ <- py_str key; Err EFilterArg
                                  | Err e => Err e | OutOfFuel => OutOfFuel | Ok l => Ok (VList l) end)).
    { pose proof (compact_key_errs key (coerce_seq v)) as H.
      destruct (compact_key all_fixed key (coerce_seq v)) as [l|e|]; [exact I| |contradiction].
      apply isT_inv in H. subst e.
      apply errs_in_bind; [apply py_str_LVT, (Forall_inv Ha)|intro; reflexivity]. }
    destruct key; try exact Hk. exact I.
  Qed.

  Lemma uniq_site_errs : errs_in (LVT h) (eval_filter all_fixed p SUniq v args).
  Proof.
    cbn [eval_filter]. apply liquid_filter_errs.
    destruct args as [|key [|b r]]; [exact I| |destruct key; apply arity_LVT].
    assert (Hk : errs_in (LVT h) (do _ <- uniq_key all_fixed key (coerce_seq v); Ok (VList (coerce_seq v)))).
    { apply errs_in_map.
      apply uniq_key_errs; [apply (Forall_inv Ha)|apply coerce_seq_NH, Hv]. }
    destruct key; try exact Hk. exact I.
  Qed.

  Lemma sort_natural_site_errs : errs_in (LVT h) (eval_filter all_fixed p SSortNatural v args).
  Proof.
    cbn [eval_filter]. apply liquid_filter_errs. pose proof (coerce_seq_NH h v Hv) as Hc.
    assert (Hplain : errs_in (LVT h) (do _ <- all_str (coerce_seq v); Ok (VList (coerce_seq v)))).
    { apply errs_in_map, all_str_errs, Hc. }
    destruct args as [|key [|b r]]; try apply arity_LVT; [exact Hplain|].
    destruct (py_truthy key); [|exact Hplain].
    apply errs_in_bind; [apply py_str_LVT, (Forall_inv Ha)|intro].
    pose proof (map_items_errs (match key with VStr _ _ => key | _ => some_str end) (coerce_seq v)) as Hm.
    destruct (map_items _ (coerce_seq v)) as [[keys|]|e|] eqn:Em; [|exact I| |contradiction].
    - apply errs_in_map. apply all_str_errs.
      (* the keys are looked-up items or nil: they hold a huge int only if the sequence does *)
      eapply map_items_NH; [exact Hc|exact Em].
    - apply isT_inv in Hm. subst e. apply arity_LVT.
  Qed.

  Lemma map_site_errs : errs_in (LVT h) (eval_filter all_fixed p SMap v args).
  Proof.
    cbn [eval_filter]. apply liquid_filter_errs.
    destruct args as [|key [|b r]]; try apply arity_LVT.
    apply errs_in_bind.
    - destruct (coerce_seq v); [exact I|]. apply py_str_LVT, (Forall_inv Ha).
    - intro. pose proof (map_items_errs (match key with VStr _ _ => key | _ => some_str end) (coerce_seq v)) as Hm.
      destruct (map_items _ (coerce_seq v)) as [[l|]|e|]; [exact I|exact I| |contradiction].
      apply isT_inv in Hm. subst e. reflexivity.
  Qed.

  Lemma ngettext_site_errs : errs_in (LVT h) (eval_filter all_fixed p SNgettext v args).
  Proof.
    cbn [eval_filter]. destruct args as [|a [|b [|c r]]]; try apply arity_LVT.
    apply errs_in_bind; [apply py_str_LVT, Hv|intro].
    apply errs_in_bind; [apply py_str_LVT, (Forall_inv Ha)|intro].
    apply errs_in_map, LT_in_LVT, int_arg_errs.
  Qed.

  Lemma gettext_site_errs lo hi : errs_in (LVT h) (eval_filter all_fixed p (SGettext lo hi) v args).
  Proof.
    cbn [eval_filter]. destruct (nth_len_ok lo hi args); [|apply arity_LVT].
    destruct args as [|c [|b r]]; try (apply errs_in_map, py_str_LVT, Hv).
    apply errs_in_bind; [apply py_str_LVT, Hv|intro].
    apply errs_in_map. destruct c; try exact I; apply py_str_LVT, (Forall_inv Ha).
  Qed.

  Lemma eval_filter_errs s : errs_in (LVT h) (eval_filter all_fixed p s v args).
  Proof.
    destruct s; cbn [eval_filter]; try exact I.
    - (* SAbs *) apply math_unary_errs. intro; exact I.
    - (* SAtMost *) apply math_binary_errs. intros; exact I.
    - (* SAtLeast *) apply math_binary_errs. intros; exact I.
    - (* SCeil *) apply math_unary_errs, round0_errs.
    - (* SFloor *) apply math_unary_errs, round0_errs.
    - (* SRound *) apply math_filter_errs, round_filter_errs.
    - (* SPlus *) apply math_binary_errs. intros; apply decimal_binop_errs, dec_add_errs.
    - (* SMinus *) apply math_binary_errs. intros; apply decimal_binop_errs, dec_sub_errs.
    - (* STimes *) apply math_binary_errs. intros; apply decimal_binop_errs, dec_mul_errs.
    - (* SDividedBy *) apply math_binary_errs, divided_by_errs.
    - (* SModulo *) apply math_binary_errs, modulo_errs.
    - (* SStrTotal *) apply string_filter_errs; [exact Hv|].
      destruct (nth_len_ok lo hi args); [|apply arity_LVT].
      apply errs_in_map, all_str_errs, Ha.
    - (* SRemoveLast *) apply string_filter_errs; [exact Hv|].
      destruct args as [|a [|b r]]; try apply arity_LVT. exact I.
    - (* SEncode *) apply string_filter_errs, nullary_errs; [exact Hv|]. destruct (p_enc_ok p); [exact I|reflexivity].
    - (* SB64Decode *) apply string_filter_errs, nullary_errs; [exact Hv|]. destruct (p_b64 p); reflexivity || exact I.
    - (* SB64UrlDecode *) apply string_filter_errs, nullary_errs; [exact Hv|]. destruct (p_b64url p); reflexivity || exact I.
    - (* STruncate *) apply string_filter_errs, truncate_errs; assumption.
    - (* SSlice *) apply liquid_filter_errs, slice_errs, Hv.
    - apply join_site_errs.
    - (* SFirst *) apply liquid_filter_errs, nullary_errs. exact I.
    - (* SLast *) apply liquid_filter_errs, nullary_errs. exact I.
    - (* SSize *) apply liquid_filter_errs, nullary_errs. exact I.
    - (* SSum *) apply liquid_filter_errs, nullary_errs, LQ_in_LVT, sum_filter_errs.
    - apply compact_site_errs.
    - apply uniq_site_errs.
    - (* SIndex *) destruct (is_array_like v); [|reflexivity].
      apply liquid_filter_errs. destruct args as [|a [|b r]]; try apply arity_LVT. destruct v; exact I.
    - (* SConcat *) apply liquid_filter_errs. destruct args as [|a [|b r]]; try apply arity_LVT;
      destruct a; reflexivity || exact I || apply arity_LVT.
    - (* SDefault *) apply liquid_filter_errs. destruct args as [|a [|b r]]; try apply arity_LVT; exact I.
    - (* SJson *) apply liquid_filter_errs, json_filter_errs, Hv.
    - apply ngettext_site_errs.
    - (* SReverse *) apply liquid_filter_errs, nullary_errs. exact I.
    - apply sort_natural_site_errs.
    - apply map_site_errs.
    - apply gettext_site_errs.
  Qed.
End FilterSites.

Lemma eval_site_errs h p async_ s v args :
  NH h v -> Forall (NH h) args -> errs_in (LV h) (eval_site all_fixed p async_ s v args).
Proof.
  intros Hv Ha.
  assert (Hf : errs_in (LV h) (filter_evaluate (eval_filter all_fixed p s v args))).
  { apply convert_type_error; [reflexivity|]. apply eval_filter_errs; assumption. }
  destruct s; try exact Hf; clear Hf; cbn [eval_site].
  - (* SRangeLit *) destruct args as [|a [|b r]]; try exact I.
    apply errs_in_bind; [apply LQ_in_LV, to_int_or_errs|intro]. apply errs_in_map, LQ_in_LV, to_int_or_errs.
  - (* SFor *) destruct args as [|a [|b r]]; try exact I.
    + apply errs_in_map, LQ_in_LV, loop_int_errs.
    + apply errs_in_bind; [apply LQ_in_LV, loop_int_errs|intro]. apply errs_in_map, LQ_in_LV, loop_int_errs.
  - (* STablerow *) destruct args as [|a [|b r]]; try exact I.
    + apply errs_in_map, LQ_in_LV, to_int_or_errs.
    + apply errs_in_bind; [apply LQ_in_LV, loop_int_errs|intro]. apply errs_in_map, LQ_in_LV, to_int_or_errs.
  - (* SContains *) destruct args as [|a [|b r]]; try exact I.
    destruct (negb (liquid_truthy v) || negb (liquid_truthy a)); [exact I|].
    destruct v; try exact I; try reflexivity.
    + apply errs_in_map, py_str_errs, (Forall_inv Ha).
    + destruct (is_hashable a); exact I.
  - (* SRootBracket *)
    assert (Hb : errs_in (LV h) (if async_ && negb (fx_root all_fixed) then Err EAssertionError else do _ <- py_str v; Ok VUndef)).
    { replace (async_ && negb (fx_root all_fixed)) with false by (destruct async_; reflexivity).
      apply errs_in_map, py_str_errs; assumption. }
    destruct v; try exact Hb. exact I.
  - (* STranslateCount *) apply errs_in_map, LQ_in_LV, to_int_or_errs.
  - (* SOutAll *) apply errs_in_bind; [apply to_liquid_string_errs; assumption|intro].
    apply errs_in_map, all_out_errs; assumption.
  - (* STernary *) destruct args as [|a [|b [|c r]]]; exact I.
Qed.

Lemma render_errs h p async_ s v args :
  NH h v -> Forall (NH h) args -> (forall r, eval_site all_fixed p async_ s v args = Ok r -> NH h r) ->
  errs_in (LV h) (do r <- eval_site all_fixed p async_ s v args; to_liquid_string r).
Proof.
  intros Hv Ha Hr. pose proof (eval_site_errs h p async_ s v args Hv Ha) as Hs.
  destruct (eval_site all_fixed p async_ s v args) as [r|x|]; [|exact Hs|exact Hs].
  apply to_liquid_string_errs, Hr. reflexivity.
Qed.

(* what is observed of a node: the handler passes foreign exceptions on and decides about Liquid errors by the mode *)
Lemma observe_node {A} t (r : res A) :
  observe (node_handler t r) =
  match r with
  | Ok _ => OOk
  | Err e => if is_liquid e then (match t with Strict => OLiquid | _ => OOk end) else OForeign e
  | OutOfFuel => OFuel
  end.
Proof.
  destruct r as [a|e|]; try reflexivity. simpl.
  destruct (is_liquid e) eqn:E; [destruct t|]; simpl; rewrite ?E; reflexivity.
Qed.

Lemma observe_node_foreign {A} ok t (r : res A) e :
  observe (node_handler t r) = OForeign e -> errs_in ok r -> ok e = true /\ is_liquid e = false.
Proof.
  rewrite observe_node. destruct r as [a|x|]; try discriminate.
  destruct (is_liquid x) eqn:E; [destruct t; discriminate|]. intros H Hr. inversion H; subst. split; assumption.
Qed.

Lemma run_exn_all_fast_eq c : run_exn_all_fast c = run_exn_all c.
Proof.
  destruct c as [s t a p v args]. unfold run_exn_all_fast, run_exn_all, render_site. cbn [c_site c_prims c_v c_args].
  apply map_ext. intros [t' b]. cbn [fst snd]. destruct b; [|reflexivity].
  (* async_ only matters for SRootBracket *)
  destruct s; reflexivity.
Qed.

Definition p_plain : prims := {| p_b64 := B64Ok; p_b64url := B64Ok; p_enc_ok := true; p_mod_impossible := false |}.
Definition p_badtext : prims := {| p_b64 := B64NonUtf8; p_b64url := B64NonAscii; p_enc_ok := false; p_mod_impossible := false |}.
Definition txt (id : N) (len : Z) : value := VStr (SOther id) len.

(* for each repair k: a site and values without any huge int where the tree with every repair but k lets a foreign exception out
   (and the fully repaired tree does not) *)
Definition repair_witnesses : list (nat * (bool * site * prims * value * list value)) := [
  (0%nat, (false, STruncate, p_plain, txt 1 3, [VFloat FPInf]));                       (* truncate: inf  -> OverflowError *)
  (0%nat, (false, SFor, p_plain, VList [VInt 1], [VFloat FNInf]));                      (* for limit: -inf *)
  (1%nat, (false, SCeil, p_plain, VStr (SFloat FNan) 3, []));                           (* the text nan | ceil -> ValueError *)
  (1%nat, (false, SFloor, p_plain, VFloat FPInf, []));                                  (* inf | floor -> OverflowError *)
  (1%nat, (false, SModulo, p_plain, VFloat (FFin 1), [VInt 0]));                        (* 1.5 | modulo: 0 -> decimal.InvalidOperation *)
  (1%nat, (false, SDividedBy, p_plain, VFloat FPInf, [VFloat FPInf]));                  (* inf / inf -> decimal.InvalidOperation *)
  (2%nat, (false, SSum, p_plain, VList [txt 1 3], []));                                 (* a non-numeric text in sum *)
  (2%nat, (false, SSum, p_plain, VList [VFloat FPInf; VFloat FNInf], []));              (* inf + -inf *)
  (3%nat, (false, SRangeLit, p_plain, VNone, [VInt 2]));                                (* (nil..2) -> TypeError *)
  (4%nat, (false, STablerow, p_plain, VList [VInt 1], [VNone]));                        (* tablerow cols: nil *)
  (5%nat, (false, STranslateCount, p_plain, VList [], []));                             (* translate count: an array *)
  (6%nat, (false, SContains, p_plain, VDict [1%N] [VInt 1], [VList [VInt 1]]));         (* hash contains array -> TypeError *)
  (7%nat, (true, SRootBracket, p_plain, VInt 1, []));                                   (* async: AssertionError *)
  (8%nat, (false, SCompact, p_plain, VList [VDict [1%N] [VInt 1]], [txt 2 1]));         (* KeyError *)
  (8%nat, (false, SUniq, p_plain, VList [txt 1 2], [VInt 7]));                          (* IndexError *)
  (9%nat, (false, SIndex, p_plain, VUndef, [VInt 1]));                                  (* AttributeError *)
  (10%nat, (false, SB64Decode, p_badtext, txt 1 4, []));                                (* UnicodeDecodeError *)
  (10%nat, (false, SB64UrlDecode, p_badtext, txt 1 1, []));                             (* ValueError, non-ASCII *)
  (10%nat, (false, SEncode, p_badtext, txt 1 2, []));                                   (* UnicodeEncodeError, lone surrogate *)
  (11%nat, (false, SJson, p_plain, VInt 1, [VInt ssize_bound]))                         (* OverflowError *)
].

Definition is_foreign (o : obs) : bool := match o with OForeign _ => true | _ => false end.

Definition witness_ok (w : nat * (bool * site * prims * value * list value)) : bool :=
  let '(k, (a, s, p, v, args)) := w in
  negb (has_huge v) && forallb (fun x => negb (has_huge x)) args
  && forallb (fun t => is_foreign (observe (render_site (all_but k) p t a s v args))
                       && negb (is_foreign (observe (render_site all_fixed p t a s v args)))) [Strict; Warn; Lax].
