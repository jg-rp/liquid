(* Lex_C10_Proofs.v — the scanner on the concrete syntax of a template, segment by segment (one loop iteration per
   text / markup, lstrip flag generalised) up to [render_template] under the occurrence guard of LexOcc.v; the alphabet
   guard [no_collision] implies that guard. *)
From Coq Require Import ZifyBool.
From LiquidVerif Require Import Prelude Lex LexSpec LexOcc Lex_Proofs Lex_Match_Proofs.
Import ListNotations.
Arguments hy : simpl never.
Arguments nl : simpl never.
Arguments hash : simpl never.
Arguments lbrace : simpl never.

Lemma off_0 p : off p 0 = p. Proof. unfold off. simpl. apply N.add_0_r. Qed.
Lemma off_S p k : off (N.succ p) k = off p (S k). Proof. unfold off. lia. Qed.

Lemma go_skip d q k : forall p s st, k <= length s -> go d q k p s st = go d q 0 (off p k) (skipn k s) st.
Proof.
  induction k; intros p s st H.
  - rewrite off_0. reflexivity.
  - destruct s as [|c s]; simpl in H; [lia|]. cbn [go skipn]. rewrite IHk by lia. rewrite off_S. reflexivity.
Qed.

Lemma go_step d q p s st out st' tot :
  step d q p s st = (out, st', tot) -> 1 <= tot <= length s ->
  go d q 0 p s st = out ++ go d q 0 (off p tot) (skipn tot s) st'.
Proof.
  intros Hs Ht. destruct s as [|c s]; simpl in Ht; [lia|]. cbn [go]. rewrite Hs.
  destruct tot; [lia|]. cbn [pred]. rewrite go_skip by lia. rewrite off_S. reflexivity.
Qed.

(* the match covers exactly the piece x of  x ++ rest *)
Lemma go_piece d q p x rest st out st' :
  step d q p (x ++ rest) st = (out, st', length x) -> x <> [] ->
  go d q 0 p (x ++ rest) st = out ++ go d q 0 (off p (length x)) rest st'.
Proof.
  intros Hs Hx. erewrite go_step; eauto. rewrite skipn_app_len. reflexivity.
  rewrite app_length. destruct x; [congruence|]. simpl. lia.
Qed.

Lemma go_piece1 d q p x rest st out st' :
  step d q p (x ++ rest) st = (out, st', length x) -> x <> [] ->
  go d q 0 p (x ++ rest) st = out ++ go d q 0 (off p (length x)) rest st'.
Proof. apply go_piece. Qed.

(* outside a block comment (depth 0) *)
Definition mk (b : bool) (ci : N) (ct : str) : lstate :=
  {| ls_lstrip := b; ls_depth := 0; ls_cidx := ci; ls_ctext := ct |}.

(* step, by kind of match, outside a block comment *)
Lemma step_MTag0 d q p s b ci ct no nlen eo el h tot :
  match_at d q s = MTag no nlen eo el h tot ->
  step d q p s (mk b ci ct)
  = (Tok {| t_kind := KTag; t_value := sub s no nlen; t_start := off p no |}
       :: match el with O => [] | _ => [Tok {| t_kind := KExpr; t_value := sub s eo el; t_start := off p eo |}] end,
     {| ls_lstrip := h; ls_depth := if str_eqb (sub s no nlen) w_comment then 1 else 0;
        ls_cidx := if str_eqb (sub s no nlen) w_comment then off p tot else ci; ls_ctext := ct |}, tot).
Proof. intros H. unfold step. rewrite H. reflexivity. Qed.

Lemma step_MOutput0 d q p s b ci ct eo el h tot :
  match_at d q s = MOutput eo el h tot ->
  step d q p s (mk b ci ct)
  = ([Tok {| t_kind := KOutput; t_value := firstn tot s; t_start := p |};
      Tok {| t_kind := KExpr; t_value := sub s eo el; t_start := off p eo |}], mk h ci ct, tot).
Proof. intros H. unfold step. rewrite H. reflexivity. Qed.

Lemma step_MRaw0 d p s b ci ct h1 h2 bo bl tot :
  match_at d fixed s = MRaw h1 h2 bo bl tot ->
  step d fixed p s (mk b ci ct)
  = ([Tok {| t_kind := KContent; t_value := sub s bo bl; t_start := p |}], mk h2 ci ct, tot).
Proof. intros H. unfold step. rewrite H. reflexivity. Qed.

Lemma step_MDoc0 d q p s b ci ct h1 h2 bo bl tot :
  match_at d q s = MDoc h1 h2 bo bl tot ->
  step d q p s (mk b ci ct)
  = ([Tok {| t_kind := KDoc; t_value := sub s bo bl; t_start := p |}], mk h2 ci ct, tot).
Proof. intros H. unfold step. rewrite H. reflexivity. Qed.

Lemma step_MComment0 d q p s b ci ct bo bl h tot :
  match_at d q s = MComment bo bl h tot ->
  step d q p s (mk b ci ct)
  = ([Tok {| t_kind := KShort; t_value := sub s bo bl; t_start := p |}], mk h ci ct, tot).
Proof. intros H. unfold step. rewrite H. reflexivity. Qed.

Lemma step_MContent0 d q p s b ci ct tot h :
  match_at d q s = MContent tot h ->
  step d q p s (mk b ci ct)
  = (match strip_text b h (firstn tot s) with
     | [] => []
     | v => if starts_markup d q v then [LexErr p] else [Tok {| t_kind := KContent; t_value := v; t_start := p |}]
     end, mk b ci ct, tot).
Proof.
  intros H. unfold step. rewrite H. cbn [m_total ls_depth mk ls_lstrip]. unfold strip_text.
  destruct (if h then _ else _); reflexivity.
Qed.

(* inside a block comment (depth 1) *)
Definition mk1 (b : bool) (ci : N) (ct : str) : lstate :=
  {| ls_lstrip := b; ls_depth := 1; ls_cidx := ci; ls_ctext := ct |}.

Lemma step_MContent1 d q p s b ci ct tot h :
  match_at d q s = MContent tot h ->
  step d q p s (mk1 b ci ct) = ([], mk1 b ci (ct ++ firstn tot s), tot).
Proof. intros H. unfold step. rewrite H. reflexivity. Qed.

Lemma step_MTag1_end d q p s b ci ct no nlen eo el h tot :
  match_at d q s = MTag no nlen eo el h tot -> sub s no nlen = w_endcomment ->
  step d q p s (mk1 b ci ct)
  = ([Tok {| t_kind := KComment; t_value := ct; t_start := ci |};
      Tok {| t_kind := KTag; t_value := w_endcomment; t_start := off p no |}], mk h 0%N [], tot).
Proof. intros H Hn. unfold step. rewrite H. cbn [m_total ls_depth mk1]. rewrite Hn. reflexivity. Qed.

(* Rendering piece by piece.  [renders] says that the scanner, started at position p of the source in state st, yields
   tokens that render as X; it also says that they do not begin with an expression token ([hne]), because the parser
   looks one token ahead after an inline-comment tag.  [piece_ok toks Y]: the tokens of one piece render as Y in front
   of whatever follows. *)
Definition hne (ts : list token) : Prop := match ts with t :: _ => t_kind t <> KExpr | [] => True end.

Definition renders (d : delims) (p : N) (s : str) (st : lstate) (X : str) : Prop :=
  exists ts, items_result (go d fixed 0 p s st) = Ok ts /\ hne ts /\ render_toks PTop ts = ROut X.

Lemma items_result_app toks l :
  items_result (map Tok toks ++ l) = match items_result l with Ok ts => Ok (toks ++ ts) | e => e end.
Proof.
  induction toks as [|t toks IH]; simpl.
  - destruct (items_result l); reflexivity.
  - rewrite IH. destruct (items_result l); reflexivity.
Qed.

Definition piece_ok (toks : list token) (Y : str) : Prop :=
  forall ts', hne ts' -> hne (toks ++ ts') /\ render_toks PTop (toks ++ ts') = rprepend Y (render_toks PTop ts').

Lemma renders_step d p s st toks p' s' st' Y X :
  go d fixed 0 p s st = map Tok toks ++ go d fixed 0 p' s' st' ->
  piece_ok toks Y -> renders d p' s' st' X -> renders d p s st (Y ++ X).
Proof.
  intros Hgo Hp (ts' & H1 & H2 & H3). exists (toks ++ ts').
  rewrite Hgo, items_result_app, H1. destruct (Hp ts' H2) as [Ha Hb].
  repeat split; auto. rewrite Hb, H3. reflexivity.
Qed.

(* what a hyphen on a CLOSING delimiter removes from the start of the following text is whitespace only, and what
   remains starts with a non-space character (or is empty) *)
Lemma lstrip_spec t : exists w, t = w ++ lstrip_s t /\ all_space w = true /\ stops (lstrip_s t).
Proof.
  unfold lstrip_s. induction t as [|c t IH]; simpl.
  - exists []. repeat split.
  - destruct (is_space c) eqn:Hc.
    + destruct IH as (w & E & Hw & Hs). exists (c :: w). simpl. rewrite Hc, Hw. repeat split; auto. congruence.
    + exists []. repeat split. simpl. exact Hc.
Qed.

Lemma all_space_rev w : all_space (rev w) = all_space w.
Proof. unfold all_space. apply forallb_rev. Qed.

(* the same for the right side: what a hyphen on an OPENING delimiter removes from the end of the preceding text is
   whitespace only, and what remains ends with a non-space character (or is empty) *)
Lemma rstrip_spec t : exists w, t = rstrip_s t ++ w /\ all_space w = true /\ stops (rev (rstrip_s t)).
Proof.
  unfold rstrip_s. destruct (lstrip_spec (rev t)) as (w & E & Hw & Hs).
  exists (rev w). split; [|split].
  - rewrite <- rev_app_distr, <- E, rev_involutive. reflexivity.
  - rewrite all_space_rev. exact Hw.
  - rewrite rev_involutive. exact Hs.
Qed.

(* stripping is idempotent and leaves a text that has nothing more to strip untouched *)
Lemma lstrip_stops t : stops t -> lstrip_s t = t.
Proof. unfold lstrip_s. destruct t as [|c t]; simpl; [reflexivity|]. intros H. rewrite H. reflexivity. Qed.

Lemma lstrip_idem t : lstrip_s (lstrip_s t) = lstrip_s t.
Proof. destruct (lstrip_spec t) as (w & _ & _ & Hs). apply lstrip_stops. exact Hs. Qed.

Lemma rstrip_idem t : rstrip_s (rstrip_s t) = rstrip_s t.
Proof. unfold rstrip_s. rewrite rev_involutive, lstrip_idem. reflexivity. Qed.

(* the stripped text is a piece of the text *)
Lemma strip_piece a b t : exists w1 w2, t = w1 ++ strip_text a b t ++ w2.
Proof.
  unfold strip_text. destruct a.
  - destruct (lstrip_spec t) as (w & E & _ & _). destruct b.
    + destruct (rstrip_spec (lstrip_s t)) as (w' & E' & _). exists w, w'. rewrite <- E'. exact E.
    + exists w, []. rewrite app_nil_r. exact E.
  - destruct b.
    + destruct (rstrip_spec t) as (w' & E' & _). exists [], w'. exact E'.
    + exists [], []. rewrite app_nil_r. reflexivity.
Qed.

Lemma rprepend_nil r : rprepend [] r = r.
Proof. destruct r; reflexivity. Qed.

Lemma piece_text v p :
  piece_ok (match v with [] => [] | n :: l => [{| t_kind := KContent; t_value := n :: l; t_start := p |}] end) v.
Proof.
  intros ts' H. destruct v.
  - cbn [app]. rewrite rprepend_nil. auto.
  - split; [simpl; discriminate | reflexivity].
Qed.

Lemma clean_not_markup d t after a b : clean d t after = true ->
  strip_text a b t <> [] -> starts_markup d fixed (strip_text a b t) = false.
Proof.
  intros Hc Hne. destruct (strip_piece a b t) as (w1 & w2 & E).
  set (v := strip_text a b t) in *.
  assert (Hlt : length w1 < length t).
  { pose proof (f_equal (@length N) E) as El. rewrite !app_length in El. destruct v; [congruence|]. simpl in El. lia. }
  pose proof (nomatch_at _ _ _ Hc _ Hlt) as Hn.
  rewrite E in Hn. rewrite <- !app_assoc in Hn. rewrite skipn_app_len in Hn.
  destruct (delim_at_none d _ Hn) as (Pts & Pss & _).
  unfold starts_markup. cbn [q_brace fixed].
  destruct (prefixb (d_ss d) v) eqn:E1.
  - rewrite (prefixb_app_r _ _ (w2 ++ after) E1) in Pss. discriminate.
  - destruct (prefixb (d_ts d) v) eqn:E2; auto.
    rewrite (prefixb_app_r _ _ (w2 ++ after) E2) in Pts. discriminate.
Qed.

Lemma go_text d p c t after h b ci ct : dfacts d -> clean d (c :: t) after = true -> follows d after h ->
  go d fixed 0 p ((c :: t) ++ after) (mk b ci ct)
  = map Tok (match strip_text b h (c :: t) with
             | [] => []
             | v => [{| t_kind := KContent; t_value := v; t_start := p |}]
             end)
    ++ go d fixed 0 (off p (length (c :: t))) after (mk b ci ct).
Proof.
  intros F Hp Hf. erewrite go_piece; [ | | discriminate].
  2: { erewrite step_MContent0 by (apply match_at_text; eauto). reflexivity. }
  rewrite firstn_app_len. f_equal.
  pose proof (clean_not_markup d _ after b h Hp) as Hv. destruct (strip_text b h (c :: t)) eqn:E; auto.
  cbv zeta. rewrite Hv by discriminate. reflexivity.
Qed.

Lemma strip_text_nil a b : strip_text a b [] = [].
Proof. destruct a, b; reflexivity. Qed.

(* the rest at every position p': [go] threads positions, rendering ignores them *)
Lemma renders_text d p t after h b ci ct X : dfacts d -> clean d t after = true -> follows d after h ->
  (forall p', renders d p' after (mk b ci ct) X) ->
  renders d p (t ++ after) (mk b ci ct) (strip_text b h t ++ X).
Proof.
  intros F Hp Hf HX. destruct t as [|c t].
  - rewrite strip_text_nil. apply HX.
  - eapply renders_step; [ apply go_text; eauto | apply piece_text | apply HX ].
Qed.

Lemma delim_at_ts d l X : hyphen_next X = false -> delim_at d (d_ts d ++ hyp l ++ X) = Some l.
Proof.
  intros H. unfold delim_at. rewrite prefixb_app, skipn_app_len. destruct l; cbn [hyp app]; [reflexivity|].
  rewrite H. reflexivity.
Qed.

Lemma sub_at (a b c s : str) : s = a ++ b ++ c -> sub s (length a) (length b) = b.
Proof. intros ->. unfold sub. rewrite skipn_app_len. apply firstn_app_len. Qed.

Lemma quote_facts q : quote_ok q = true ->
  is_space q = false /\ is_word q = false /\ N.eqb q hy = false.
Proof.
  unfold quote_ok, squote, dquote. intros H. apply orb_true_iff in H as [H|H]; apply N.eqb_eq in H; subst q; auto.
Qed.

Lemma str_lit_ok q e : quote_ok q = true -> lit_ok q e = true -> str_lit (q :: e ++ [q]) = Some e.
Proof.
  unfold quote_ok, lit_ok, str_lit. intros Hq He. rewrite Hq, rev_unit, N.eqb_refl, forallb_rev, He.
  cbn [andb]. rewrite rev_involutive. reflexivity.
Qed.

Lemma no_nl_valid body : forallb (fun c => negb (N.eqb c nl)) body = true -> invalid_inline body = false.
Proof.
  induction body as [|c r IH]; [reflexivity|]. simpl. intros H. apply andb_true_iff in H as [H1 H2].
  apply negb_true_iff in H1. rewrite H1, IH by auto. reflexivity.
Qed.

Lemma app_ne (a b : str) : nonempty a = true -> a ++ b <> [].
Proof. destruct a; simpl; intros; congruence. Qed.

Ltac split_and H :=
  repeat match type of H with
         | _ && _ = true => let H' := fresh "W" in apply andb_true_iff in H; destruct H as [H H']
         end.

Lemma msrc_ne d m rest : dfacts d -> wf_markup_occ d m rest = true -> msrc d m <> [].
Proof.
  intros F H. destruct m; cbn [msrc]; unfold wtag; norm_app; try (apply app_ne, F).
  cbn [wf_markup_occ] in H. split_and H. apply app_ne, H.
Qed.

(* what the scanner does on one markup, whatever precedes and follows it: it emits tokens that render as the markup's
   own output and leaves the lstrip flag the markup's closing marker *)
Definition markup_steps (d : delims) (m : markup) (rest : str) : Prop :=
  forall p b ci ct, exists toks p' ci' ct',
    go d fixed 0 p (msrc d m ++ rest) (mk b ci ct)
    = map Tok toks ++ go d fixed 0 p' rest (mk (closes m) ci' ct')
    /\ piece_ok toks (mout m).

(* every markup but the block comment is one match: what is left to show is what [step] returns on it and that the
   tokens render as they should *)
Lemma one_match d m rest (toks : N -> list token) : msrc d m <> [] ->
  (forall p b ci ct, step d fixed p (msrc d m ++ rest) (mk b ci ct)
                     = (map Tok (toks p), mk (closes m) ci ct, length (msrc d m))) ->
  (forall p, piece_ok (toks p) (mout m)) ->
  markup_steps d m rest.
Proof.
  intros Hne Hstep Hpiece p b ci ct. exists (toks p), (off p (length (msrc d m))), ci, ct.
  split; [apply go_piece; auto | apply Hpiece].
Qed.

Lemma steps_out d l w1 q e w2 r rest : dfacts d -> wf_markup_occ d (MkOut l w1 q e w2 r) rest = true ->
  markup_steps d (MkOut l w1 q e w2 r) rest.
Proof.
  intros F H. pose proof (msrc_ne d _ _ F H) as Hne. cbn [wf_markup_occ] in H.
  apply andb_true_iff in H as [H Ht]. apply andb_true_iff in H as [H Hl]. apply andb_true_iff in H as [H Hq].
  apply andb_true_iff in H as [H1 H2].
  destruct (quote_facts q Hq) as (Q1 & Q2 & Q3).
  set (M := MkOut l w1 q e w2 r) in *. set (E := q :: e ++ [q]) in *.
  assert (HM : match_at d fixed (msrc d M ++ rest)
               = MOutput (length (d_ss d ++ hyp l ++ w1)) (length E) r (length (msrc d M))).
  { unfold M. cbn [msrc]. fold E. norm_app. apply match_at_out; auto. }
  assert (Hsub : sub (msrc d M ++ rest) (length (d_ss d ++ hyp l ++ w1)) (length E) = E).
  { apply sub_at with (c := w2 ++ hyp r ++ d_se d ++ rest). unfold M. cbn [msrc]. fold E. norm_app. reflexivity. }
  apply one_match with (toks := fun p =>
    [ {| t_kind := KOutput; t_value := firstn (length (msrc d M)) (msrc d M ++ rest); t_start := p |};
      {| t_kind := KExpr; t_value := E; t_start := off p (length (d_ss d ++ hyp l ++ w1)) |} ]); [exact Hne | | ].
  - intros p b ci ct. erewrite step_MOutput0 by exact HM. rewrite Hsub. reflexivity.
  - intros p ts' Hh. split; [simpl; discriminate|].
    cbn [app render_toks t_kind t_value mout M]. unfold E. rewrite str_lit_ok by auto. reflexivity.
Qed.

Lemma steps_echo d l w1 w2 q e w3 r rest : dfacts d -> wf_markup_occ d (MkEcho l w1 w2 q e w3 r) rest = true ->
  markup_steps d (MkEcho l w1 w2 q e w3 r) rest.
Proof.
  intros F H. pose proof (msrc_ne d _ _ F H) as Hne. cbn [wf_markup_occ] in H.
  apply andb_true_iff in H as [H Ht]. apply andb_true_iff in H as [H Hl]. apply andb_true_iff in H as [H Hq].
  apply andb_true_iff in H as [H H3]. apply andb_true_iff in H as [H1 H2].
  destruct (quote_facts q Hq) as (Q1 & Q2 & Q3).
  set (M := MkEcho l w1 w2 q e w3 r) in *. set (E := q :: e ++ [q]) in *.
  assert (HM : match_at d fixed (msrc d M ++ rest)
               = MTag (length (d_ts d ++ hyp l ++ w1)) (length w_echo) (length (d_ts d ++ hyp l ++ w1 ++ w_echo ++ w2))
                      (length E) r (length (msrc d M))).
  { unfold M. cbn [msrc]. fold E. norm_app. apply match_at_tag; auto; try reflexivity.
    change (name_len (w_echo ++ w2 ++ E ++ w3 ++ hyp r ++ d_te d ++ rest))
      with (word_len (w_echo ++ w2 ++ E ++ w3 ++ hyp r ++ d_te d ++ rest)).
    rewrite word_len_app by reflexivity. rewrite word_len_after_name; auto. }
  assert (Hname : sub (msrc d M ++ rest) (length (d_ts d ++ hyp l ++ w1)) (length w_echo) = w_echo).
  { apply sub_at with (c := w2 ++ E ++ w3 ++ hyp r ++ d_te d ++ rest). unfold M. cbn [msrc]. fold E. norm_app. reflexivity. }
  assert (Hsub : sub (msrc d M ++ rest) (length (d_ts d ++ hyp l ++ w1 ++ w_echo ++ w2)) (length E) = E).
  { apply sub_at with (c := w3 ++ hyp r ++ d_te d ++ rest). unfold M. cbn [msrc]. fold E. norm_app. reflexivity. }
  apply one_match with (toks := fun p =>
    [ {| t_kind := KTag; t_value := w_echo; t_start := off p (length (d_ts d ++ hyp l ++ w1)) |};
      {| t_kind := KExpr; t_value := E; t_start := off p (length (d_ts d ++ hyp l ++ w1 ++ w_echo ++ w2)) |} ]);
    [exact Hne | | ].
  - intros p b ci ct. erewrite step_MTag0 by exact HM. rewrite Hname, Hsub. reflexivity.
  - intros p ts' Hh. split; [simpl; discriminate|].
    cbn [app render_toks t_kind t_value mout M]. unfold E.
    change (str_eqb w_echo w_hash) with false. change (str_eqb w_echo w_comment) with false.
    change (str_eqb w_echo w_doc) with false. change (str_eqb w_echo w_echo) with true. cbv iota.
    rewrite str_lit_ok by auto. reflexivity.
Qed.

Lemma steps_inline d l w1 w2 body w3 r rest : dfacts d -> wf_markup_occ d (MkInline l w1 w2 body w3 r) rest = true ->
  markup_steps d (MkInline l w1 w2 body w3 r) rest.
Proof.
  intros F H. pose proof (msrc_ne d _ _ F H) as Hne. cbn [wf_markup_occ] in H.
  apply andb_true_iff in H as [H Hfn]. apply andb_true_iff in H as [H Hw3]. apply andb_true_iff in H as [H Hnl].
  apply andb_true_iff in H as [H Ht]. apply andb_true_iff in H as [H H3]. apply andb_true_iff in H as [H1 H2].
  set (M := MkInline l w1 w2 body w3 r) in *.
  assert (Hstop : stops (body ++ w3 ++ hyp r ++ d_te d ++ rest)).
  { destruct body as [|c body'].
    - cbn [nonempty orb negb] in Hw3. destruct w3; [|discriminate]. cbn [app]. apply stops_hyp_e; apply F.
    - simpl in Hfn. apply negb_true_iff in Hfn. simpl. exact Hfn. }
  assert (HM : match_at d fixed (msrc d M ++ rest)
               = MTag (length (d_ts d ++ hyp l ++ w1)) (length w_hash) (length (d_ts d ++ hyp l ++ w1 ++ w_hash ++ w2))
                      (length body) r (length (msrc d M))).
  { unfold M. cbn [msrc]. norm_app. apply match_at_tag; auto; reflexivity. }
  assert (Hname : sub (msrc d M ++ rest) (length (d_ts d ++ hyp l ++ w1)) (length w_hash) = w_hash).
  { apply sub_at with (c := w2 ++ body ++ w3 ++ hyp r ++ d_te d ++ rest). unfold M. cbn [msrc]. norm_app. reflexivity. }
  assert (Hsub : sub (msrc d M ++ rest) (length (d_ts d ++ hyp l ++ w1 ++ w_hash ++ w2)) (length body) = body).
  { apply sub_at with (c := w3 ++ hyp r ++ d_te d ++ rest). unfold M. cbn [msrc]. norm_app. reflexivity. }
  apply one_match with (toks := fun p =>
    {| t_kind := KTag; t_value := w_hash; t_start := off p (length (d_ts d ++ hyp l ++ w1)) |}
    :: match length body with
       | O => []
       | _ => [ {| t_kind := KExpr; t_value := body; t_start := off p (length (d_ts d ++ hyp l ++ w1 ++ w_hash ++ w2)) |} ]
       end); [exact Hne | | ].
  - intros p b ci ct. erewrite step_MTag0 by exact HM. rewrite Hname, Hsub. destruct (length body); reflexivity.
  - intros p ts' Hh. split; [simpl; discriminate|]. cbn [mout M]. rewrite rprepend_nil.
    destruct body as [|c body'].
    + cbn [length app render_toks t_kind t_value]. change (str_eqb w_hash w_hash) with true. cbv iota.
      destruct ts' as [|t ts'']; [reflexivity|]. simpl in Hh. destruct (t_kind t); try reflexivity. congruence.
    + cbn [length app render_toks t_kind t_value]. change (str_eqb w_hash w_hash) with true. cbv iota.
      rewrite no_nl_valid by auto. reflexivity.
Qed.

Lemma steps_raw d l1 w1 w2 r1 body l2 w3 w4 r2 rest : dfacts d ->
  wf_markup_occ d (MkRaw l1 w1 w2 r1 body l2 w3 w4 r2) rest = true ->
  markup_steps d (MkRaw l1 w1 w2 r1 body l2 w3 w4 r2) rest.
Proof.
  intros F H. pose proof (msrc_ne d _ _ F H) as Hne. cbn [wf_markup_occ] in H.
  apply andb_true_iff in H as [H Hb]. apply andb_true_iff in H as [H H4]. apply andb_true_iff in H as [H H3].
  apply andb_true_iff in H as [H1 H2].
  set (M := MkRaw l1 w1 w2 r1 body l2 w3 w4 r2) in *. set (t1 := wtag d l1 w1 w_raw w2 r1).
  assert (HM : match_at d fixed (msrc d M ++ rest) = MRaw r1 r2 (length t1) (length body) (length (msrc d M))).
  { unfold M. cbn [msrc]. norm_app. apply match_at_raw; auto. }
  assert (Hsub : sub (msrc d M ++ rest) (length t1) (length body) = body).
  { apply sub_at with (c := wtag d l2 w3 w_endraw w4 r2 ++ rest). unfold M. cbn [msrc]. norm_app. reflexivity. }
  apply one_match with (toks := fun p => [ {| t_kind := KContent; t_value := body; t_start := p |} ]); [exact Hne | | ].
  - intros p b ci ct. erewrite step_MRaw0 by exact HM. rewrite Hsub. reflexivity.
  - intros p ts' Hh. split; [simpl; discriminate|]. reflexivity.
Qed.

Lemma steps_doc d l1 w1 w2 r1 body l2 w3 w4 r2 rest : dfacts d ->
  wf_markup_occ d (MkDoc l1 w1 w2 r1 body l2 w3 w4 r2) rest = true ->
  markup_steps d (MkDoc l1 w1 w2 r1 body l2 w3 w4 r2) rest.
Proof.
  intros F H. pose proof (msrc_ne d _ _ F H) as Hne. cbn [wf_markup_occ] in H.
  apply andb_true_iff in H as [H Hb]. apply andb_true_iff in H as [H H4]. apply andb_true_iff in H as [H H3].
  apply andb_true_iff in H as [H1 H2].
  set (M := MkDoc l1 w1 w2 r1 body l2 w3 w4 r2) in *. set (t1 := wtag d l1 w1 w_doc w2 r1).
  assert (HM : match_at d fixed (msrc d M ++ rest) = MDoc r1 r2 (length t1) (length body) (length (msrc d M))).
  { unfold M. cbn [msrc]. norm_app. apply match_at_doc; auto. }
  apply one_match with (toks := fun p =>
    [ {| t_kind := KDoc; t_value := sub (msrc d M ++ rest) (length t1) (length body); t_start := p |} ]); [exact Hne | | ].
  - intros p b ci ct. erewrite step_MDoc0 by exact HM. reflexivity.
  - intros p ts' Hh. split; [simpl; discriminate|]. cbn [mout M]. rewrite rprepend_nil. reflexivity.
Qed.

Lemma steps_short d l body r rest : dfacts d -> wf_markup_occ d (MkShort l body r) rest = true ->
  markup_steps d (MkShort l body r) rest.
Proof.
  intros F H. pose proof (msrc_ne d _ _ F H) as Hne. cbn [wf_markup_occ] in H.
  apply andb_true_iff in H as [H Hm]. apply andb_true_iff in H as [Hcs Hb].
  set (M := MkShort l body r) in *.
  assert (HM : match_at d fixed (msrc d M ++ rest)
               = MComment (length (d_cs d)) (length (hyp l ++ body)) r (length (msrc d M))).
  { unfold M. cbn [msrc]. norm_app. rewrite !(app_assoc (hyp l) body). apply match_at_short; auto. }
  apply one_match with (toks := fun p =>
    [ {| t_kind := KShort; t_value := sub (msrc d M ++ rest) (length (d_cs d)) (length (hyp l ++ body)); t_start := p |} ]);
    [exact Hne | | ].
  - intros p b ci ct. erewrite step_MComment0 by exact HM. reflexivity.
  - intros p ts' Hh. split; [simpl; discriminate|]. cbn [mout M]. rewrite rprepend_nil. reflexivity.
Qed.

(* a block comment is three matches: the comment tag raises the depth to 1, the body (a text: nothing in it starts markup)
   is appended to the comment text, endcomment emits the comment token and resets the bookkeeping *)
Lemma go_comment_open d p l w1 w2 r after b ci ct : dfacts d -> all_space w1 = true -> all_space w2 = true ->
  go d fixed 0 p (wtag d l w1 w_comment w2 r ++ after) (mk b ci ct)
  = [Tok {| t_kind := KTag; t_value := w_comment; t_start := off p (length (d_ts d ++ hyp l ++ w1)) |}]
    ++ go d fixed 0 (off p (length (wtag d l w1 w_comment w2 r))) after
          (mk1 r (off p (length (wtag d l w1 w_comment w2 r))) ct).
Proof.
  intros F H1 H2. erewrite go_piece; [reflexivity | | unfold wtag; apply app_ne, F].
  erewrite step_MTag0 by (apply match_at_wtag; auto; repeat split).
  rewrite (sub_at (d_ts d ++ hyp l ++ w1) w_comment (w2 ++ hyp r ++ d_te d ++ after))
    by (unfold wtag; norm_app; reflexivity).
  reflexivity.
Qed.

Lemma go_comment_text d p body after h b ci ct : dfacts d -> clean d body after = true -> follows d after h ->
  go d fixed 0 p (body ++ after) (mk1 b ci ct) = go d fixed 0 (off p (length body)) after (mk1 b ci (ct ++ body)).
Proof.
  intros F Hc Hf. destruct body as [|c body'].
  - cbn [app length]. rewrite off_0, app_nil_r. reflexivity.
  - erewrite go_piece; [ | | discriminate].
    2: { erewrite step_MContent1 by (apply match_at_text; eauto). rewrite firstn_app_len. reflexivity. }
    reflexivity.
Qed.

Lemma go_comment_close d p l w1 w2 r rest b ci ct : dfacts d -> all_space w1 = true -> all_space w2 = true ->
  go d fixed 0 p (wtag d l w1 w_endcomment w2 r ++ rest) (mk1 b ci ct)
  = [Tok {| t_kind := KComment; t_value := ct; t_start := ci |};
     Tok {| t_kind := KTag; t_value := w_endcomment; t_start := off p (length (d_ts d ++ hyp l ++ w1)) |}]
    ++ go d fixed 0 (off p (length (wtag d l w1 w_endcomment w2 r))) rest (mk r 0%N []).
Proof.
  intros F H1 H2. erewrite go_piece; [reflexivity | | unfold wtag; apply app_ne, F].
  erewrite step_MTag1_end; [reflexivity | apply match_at_wtag; auto; repeat split | ].
  apply sub_at with (c := w2 ++ hyp r ++ d_te d ++ rest). unfold wtag. norm_app. reflexivity.
Qed.

Lemma steps_comment d l1 w1 w2 r1 body l2 w3 w4 r2 rest : dfacts d ->
  wf_markup_occ d (MkComment l1 w1 w2 r1 body l2 w3 w4 r2) rest = true ->
  markup_steps d (MkComment l1 w1 w2 r1 body l2 w3 w4 r2) rest.
Proof.
  intros F H. cbn [wf_markup_occ] in H.
  apply andb_true_iff in H as [H Hb]. apply andb_true_iff in H as [H H4]. apply andb_true_iff in H as [H H3].
  apply andb_true_iff in H as [H1 H2].
  intros p b ci ct. eexists [ _; _; _ ], _, 0%N, []. split.
  - cbn [msrc closes]. norm_app. rewrite go_comment_open by auto.
    rewrite go_comment_text with (h := l2) by
      (auto; right; unfold wtag; norm_app; apply delim_at_ts, hyphen_next_space_or; auto).
    rewrite go_comment_close by auto. reflexivity.
  - intros ts' Hh. split; [simpl; discriminate|]. cbn [mout]. rewrite rprepend_nil. reflexivity.
Qed.

Lemma markup_ok d m rest : dfacts d -> wf_markup_occ d m rest = true -> markup_steps d m rest.
Proof.
  intros F H. destruct m.
  - apply steps_out; auto.
  - apply steps_echo; auto.
  - apply steps_inline; auto.
  - apply steps_raw; auto.
  - apply steps_doc; auto.
  - apply steps_comment; auto.
  - apply steps_short; auto.
Qed.

Lemma follows_markup d m rest : dfacts d -> wf_markup_occ d m rest = true -> follows d (msrc d m ++ rest) (opens m).
Proof.
  intros F H. right. destruct m; cbn [msrc opens wf_markup_occ] in *; unfold wtag; norm_app.
  - (* out *) split_and H. destruct (quote_facts q W1) as (_ & _ & Q3).
    unfold delim_at. rewrite ts_not_ss by auto. rewrite prefixb_app, skipn_app_len.
    destruct l; cbn [hyp app]; [reflexivity|]. rewrite hyphen_next_space_or; auto.
  - (* echo *) split_and H. apply delim_at_ts. apply hyphen_next_space_or; auto.
  - (* inline *) split_and H. apply delim_at_ts. apply hyphen_next_space_or; auto.
  - (* raw *) split_and H. apply delim_at_ts. apply hyphen_next_space_or; auto.
  - (* doc *) split_and H. apply delim_at_ts. apply hyphen_next_space_or; auto.
  - (* comment *) split_and H. apply delim_at_ts. apply hyphen_next_space_or; auto.
  - (* short *) split_and H. unfold delim_at.
    rewrite ts_not_cs, ss_not_cs by auto. rewrite H, prefixb_app, skipn_app_len. cbn [andb].
    destruct l; cbn [hyp app orb] in *; [reflexivity|].
    apply negb_true_iff in W. rewrite W. reflexivity.
Qed.

Lemma renders_nil d p st : renders d p [] st [].
Proof. exists []. repeat split. Qed.

Lemma scan_segs d : dfacts d -> forall segs tail, wf_segs_occ d segs tail = true ->
  forall p b ci ct, renders d p (build_segs d segs ++ tail) (mk b ci ct) (spec_from b segs tail).
Proof.
  intros F segs tail. induction segs as [|[t m] segs IH]; intros Hwf p b ci ct.
  - cbn [build_segs app spec_from wf_segs_occ] in *.
    rewrite <- (app_nil_r tail) at 1. rewrite <- (app_nil_r (strip_text b false tail)).
    apply renders_text; auto; [left; auto|]. intros; apply renders_nil.
  - cbn [wf_segs_occ] in Hwf. cbv zeta in Hwf.
    apply andb_true_iff in Hwf as [Hm Hwf]. apply andb_true_iff in Hm as [Ht Hm].
    cbn [build_segs spec_from]. norm_app.
    apply renders_text; auto using follows_markup.
    intros p1.
    destruct (markup_ok d m _ F Hm p1 b ci ct) as (toks & p2 & ci2 & ct2 & Hgo & Hpiece).
    eapply renders_step; [ exact Hgo | exact Hpiece | ]. apply IH; auto.
Qed.

Lemma render_template d segs tail : d_ok d = true -> wf_segs_occ d segs tail = true ->
  render_src d (build_segs d segs ++ tail) = ROut (spec_from false segs tail).
Proof.
  intros Hd Hwf.
  destruct (scan_segs d (d_ok_facts d Hd) segs tail Hwf 0%N false 0%N []) as (ts & H1 & _ & H3).
  unfold render_src, tokenize, tokenize_q, scan. change ls0 with (mk false 0%N []). rewrite H1. exact H3.
Qed.

Lemma tight_facts e x : tight e x = true ->
  body_ok e x /\ (x <> [] -> is_space (hd0 x) = false).
Proof.
  unfold tight. intros H. apply andb_true_iff in H as [H1 H2]. destruct x as [|c x].
  - repeat split; auto; try congruence.
  - apply andb_true_iff in H2 as [H2 H4]. apply andb_true_iff in H2 as [H2 H3].
    apply negb_true_iff in H2, H3, H4. repeat split; auto.
Qed.

Lemma last0_app_cons a c b : last0 (a ++ c :: b) = last0 (c :: b).
Proof. unfold last0. induction a as [|x a IH]; auto. simpl app. rewrite <- IH. destruct (a ++ c :: b) eqn:E; auto.
  destruct a; discriminate. Qed.

Lemma plain_not_delim d c s : dfacts d -> plain_char d c = true -> delim_at d (c :: s) = None.
Proof.
  intros F H. unfold plain_char in H.
  apply andb_true_iff in H as [H Hcs]. apply andb_true_iff in H as [Hts Hss].
  apply negb_true_iff in Hts, Hss, Hcs.
  unfold delim_at.
  rewrite (prefixb_hd_neq (d_ts d)); [ | apply F | intro E; rewrite E, N.eqb_refl in Hts; discriminate ].
  rewrite (prefixb_hd_neq (d_ss d)); [ | apply F | intro E; rewrite E, N.eqb_refl in Hss; discriminate ].
  destruct (nonempty (d_cs d)) eqn:Hne; cbn [andb] in *; auto.
  rewrite (prefixb_hd_neq (d_cs d)); auto. intro E; rewrite E, N.eqb_refl in Hcs; discriminate.
Qed.

Lemma plain_clean d t after : dfacts d -> plain d t = true -> clean d t after = true.
Proof.
  intros F. induction t as [|c t IH]; intros H; [reflexivity|].
  simpl in H. apply andb_true_iff in H as [Hc Ht]. unfold clean in *. cbn [nomatch]. simpl app.
  rewrite plain_not_delim by auto. cbn [is_some negb andb]. auto.
Qed.

Lemma body_ok_nomatch e y z :
  nonempty e = true -> is_space (hd0 e) = false -> N.eqb (hd0 e) hy = false ->
  body_ok e y -> nomatch (close e) y z = true.
Proof.
  intros E1 E2 E3. apply nomatch_tails; [apply body_ok_tl | intros; apply close_none; auto].
Qed.

Lemma cbody_ok_nomatch e y z : nonempty e = true -> cbody_ok e y -> nomatch (cclose e) y z = true.
Proof.
  intros E1. apply nomatch_tails; [apply cbody_ok_tl | intros; apply cclose_none; auto].
Qed.

Lemma no_ts_nomatch d w body z : dfacts d ->
  forallb (fun c => negb (N.eqb c (hd0 (d_ts d)))) body = true -> nomatch (wordtag d w) body z = true.
Proof.
  intros F. induction body as [|c body IH]; intros H; [reflexivity|].
  simpl in H. apply andb_true_iff in H as [Hc Hb]. apply negb_true_iff in Hc. cbn [nomatch]. simpl app.
  rewrite wordtag_not_ts; [cbn [is_some negb andb]; auto|].
  apply prefixb_hd_neq. apply F. intro E. rewrite E, N.eqb_refl in Hc. discriminate.
Qed.

Lemma wf_markup_occ_of_wf d m rest : dfacts d -> wf_markup d m = true -> wf_markup_occ d m rest = true.
Proof.
  intros F H. destruct m; cbn [wf_markup wf_markup_occ] in *.
  - split_and H. rewrite H, W2, W1, W0. cbn [andb].
    destruct (tight_facts _ _ W) as (Hb & _). apply body_ok_nomatch; auto using se_ne, se_nsp, se_nhy.
  - split_and H. rewrite H, W3, W2, W1, W0. cbn [andb].
    destruct (tight_facts _ _ W) as (Hb & _). apply body_ok_nomatch; auto using te_ne, te_nsp, te_nhy.
  - split_and H. rewrite H, W3, W2, W0, W. cbn [andb].
    destruct (tight_facts _ _ W1) as (Hb & Hhd).
    rewrite body_ok_nomatch by (auto using te_ne, te_nsp, te_nhy). cbn [andb].
    destruct body as [|c body']; [reflexivity|]. pose proof (Hhd ltac:(discriminate)) as Hc. cbn [hd0] in Hc.
    cbn [nonempty orb first_nonspace andb]. rewrite Hc. reflexivity.
  - split_and H. rewrite H, W2, W1, W0. cbn [andb]. apply no_ts_nomatch; auto.
  - split_and H. rewrite H, W2, W1, W0. cbn [andb]. apply no_ts_nomatch; auto.
  - split_and H. rewrite H, W2, W1, W0. cbn [andb]. apply plain_clean; auto.
  - split_and H. rewrite H. cbn [andb]. pose proof (ce_nhy d F) as Hce. destruct (cs_facts d F H) as (Hcene & _).
    assert (Hy : cbody_ok (d_ce d) (hyp l ++ body)).
    { split.
      - rewrite forallb_app, W0, andb_true_r. destruct l; cbn [hyp forallb]; auto.
        rewrite N.eqb_sym, Hce. reflexivity.
      - destruct body as [|c body'].
        + apply andb_true_iff in W as [Hl _]. apply negb_true_iff in Hl. subst l. cbn [hyp app]. congruence.
        + intros _. apply andb_true_iff in W as [_ Hlast]. apply negb_true_iff in Hlast.
          rewrite last0_app_cons. exact Hlast. }
    rewrite cbody_ok_nomatch by auto. cbn [andb].
    destruct l; [reflexivity|]. cbn [orb]. apply negb_true_iff.
    destruct body as [|c body'].
    + apply andb_true_iff in W as [_ Wr]. apply negb_true_iff in Wr. subst r. cbn [hyp app].
      destruct (d_ce d); cbn [nonempty hd0 app hyphen_next] in *; [discriminate|]. exact Hce.
    + apply andb_true_iff in W as [Wc _]. apply negb_true_iff in Wc. cbn [app hyphen_next]. exact Wc.
Qed.

Lemma wf_segs_occ_of_wf d segs tail : dfacts d -> wf_segs d segs = true -> plain d tail = true ->
  wf_segs_occ d segs tail = true.
Proof.
  intros F. induction segs as [|[t m] segs IH]; intros Hwf Htail; cbn [wf_segs_occ].
  - apply plain_clean; auto.
  - cbn [wf_segs forallb fst snd] in Hwf. apply andb_true_iff in Hwf as [Hm Hwf].
    apply andb_true_iff in Hm as [Ht Hm]. cbv zeta.
    rewrite plain_clean, wf_markup_occ_of_wf by auto. cbn [andb]. apply IH; auto.
Qed.

(* C10 under the alphabet guard (partial: see no_collision) *)
Theorem whitespace_control_partial : forall d tp, no_collision d tp = true ->
  render_src d (build d tp) = ROut (spec_render tp).
Proof.
  intros d [segs tail] H. unfold no_collision in H. cbn [fst snd] in H.
  apply andb_true_iff in H as [H Htail]. apply andb_true_iff in H as [Hd Hwf].
  apply render_template; auto. apply wf_segs_occ_of_wf; auto using d_ok_facts.
Qed.

(* text outside markup is output verbatim *)
Lemma text_verbatim d t : d_ok d = true -> plain d t = true -> render_src d t = ROut t.
Proof.
  intros Hd Ht. change t with (build d ([], t)) at 1.
  rewrite whitespace_control_partial; [reflexivity|]. unfold no_collision. cbn [fst snd wf_segs forallb]. rewrite Hd, Ht. reflexivity.
Qed.

(* one markup between two texts *)
Lemma one_markup d t1 m t2 : no_collision d ([(t1, m)], t2) = true ->
  render_src d (t1 ++ msrc d m ++ t2)
  = ROut (strip_text false (opens m) t1 ++ mout m ++ strip_text (closes m) false t2).
Proof.
  intros H. pose proof (whitespace_control_partial d ([(t1, m)], t2) H) as E.
  unfold build, spec_render in E. cbn [fst snd build_segs spec_from] in E.
  rewrite <- !app_assoc, app_nil_l in E. cbn [app] in E. exact E.
Qed.

(* the body of a raw block is output verbatim, whatever the four markers are *)
Lemma raw_verbatim d t1 l1 w1 w2 r1 body l2 w3 w4 r2 t2 :
  no_collision d ([(t1, MkRaw l1 w1 w2 r1 body l2 w3 w4 r2)], t2) = true ->
  render_src d (t1 ++ msrc d (MkRaw l1 w1 w2 r1 body l2 w3 w4 r2) ++ t2)
  = ROut (strip_text false l1 t1 ++ body ++ strip_text r2 false t2).
Proof. intros H. apply (one_markup d t1 _ t2 H). Qed.

(* comment, doc, shorthand-comment and inline-comment bodies are never output *)
Definition silent (m : markup) : bool :=
  match m with MkInline _ _ _ _ _ _ | MkDoc _ _ _ _ _ _ _ _ _ | MkComment _ _ _ _ _ _ _ _ _ | MkShort _ _ _ => true | _ => false end.

Lemma comments_silent d t1 m t2 : silent m = true -> no_collision d ([(t1, m)], t2) = true ->
  render_src d (t1 ++ msrc d m ++ t2) = ROut (strip_text false (opens m) t1 ++ strip_text (closes m) false t2).
Proof. intros Hs H. rewrite (one_markup d t1 m t2 H). destruct m; try discriminate; reflexivity. Qed.

(* a template without any hyphen, and its texts and outputs simply concatenated (C10_no_hyphen_no_strip) *)
Fixpoint no_markers (segs : list (str * markup)) : bool :=
  match segs with [] => true | (_, m) :: r => negb (opens m) && negb (closes m) && no_markers r end.

Fixpoint plain_concat (segs : list (str * markup)) (tail : str) : str :=
  match segs with [] => tail | (t, m) :: r => t ++ mout m ++ plain_concat r tail end.

(* C11 part 1: the rendering does not depend on the delimiters *)
Lemma delimiter_equivariance d1 d2 tp : no_collision d1 tp = true -> no_collision d2 tp = true ->
  render_src d1 (build d1 tp) = render_src d2 (build d2 tp).
Proof. intros H1 H2. rewrite !whitespace_control_partial; auto. Qed.
