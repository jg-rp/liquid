(* What a call binds (the binding of MacroArgs.v on expressions), where and when the bound expressions are evaluated
   (call_namespace over Scope.v's values: in the caller's context, at the call), the macro table, partials, and with
   blocks under errors.  Proofs about MacroCall.v / MacroArgs.v / Scope.v. *)
From LiquidVerif Require Import Prelude PyPrims Scope Scope_Proofs MacroCall.
From LiquidVerif Require MacroArgs MacroArgs_Proofs.

Module MA := MacroArgs.
Module MP := MacroArgs_Proofs.

Section Binding.
  Context {E : Type}.
  Notation params := (@MA.params E).

  (* keys of a list in order of first occurrence *)
  Fixpoint remove_str (k : str) (l : list str) : list str :=
    match l with [] => [] | x :: r => if str_eqb k x then remove_str k r else x :: remove_str k r end.
  Fixpoint dedup (l : list str) : list str :=
    match l with [] => [] | x :: r => x :: remove_str x (dedup r) end.

  Lemma alookup_has_key_false {V} k (l : list (str * V)) : MA.has_key k l = false -> alookup k l = None.
  Proof.
    induction l as [|[k' v] l IH]; cbn; [reflexivity|].
    destruct (str_eqb k k'); cbn; [discriminate|exact IH].
  Qed.

  (* the value of parameter number i + j in the documented binding *)
  Lemma spec_args_lookup (ps : params) : forall i j pos (kws : list (str * E)) p d,
    NoDup (map fst ps) -> nth_error ps j = Some (p, d) ->
    alookup p (MA.spec_args ps i pos kws) =
    Some (match MA.last_kw p kws with
          | Some v => Some v
          | None => match nth_error pos (i + j) with Some e => Some e | None => d end
          end).
  Proof.
    induction ps as [|[n d0] ps IH]; intros i j pos kws p d Hnd Hj; [destruct j; discriminate|].
    cbn [MA.spec_args]. inversion Hnd as [|? ? Hnotin Hnd']; subst. cbn [alookup].
    destruct j as [|j].
    - cbn in Hj. inversion Hj; subst. rewrite str_eqb_refl. rewrite Nat.add_0_r. reflexivity.
    - cbn [nth_error] in Hj. destruct (str_eqb_spec p n) as [->|Hne].
      + exfalso. apply Hnotin. apply nth_error_In in Hj. change n with (fst (n, d)). apply in_map. exact Hj.
      + rewrite (IH (S i) j pos kws p d Hnd' Hj). replace (S i + j) with (i + S j) by lia. reflexivity.
  Qed.

  (* the parameters keep their order, whatever is passed *)
  Lemma spec_args_keys (ps : params) : forall i pos (kws : list (str * E)), map fst (MA.spec_args ps i pos kws) = map fst ps.
  Proof. induction ps as [|[n d] ps IH]; intros; cbn; [reflexivity|]. f_equal. apply IH. Qed.

  Lemma alookup_remove_key {V} x k (l : list (str * V)) :
    alookup x (MA.remove_key k l) = if str_eqb x k then None else alookup x l.
  Proof.
    induction l as [|[k' v] l IH]; cbn; [destruct (str_eqb x k); reflexivity|].
    destruct (str_eqb_spec k k') as [->|Hne]; cbn.
    - rewrite IH. destruct (str_eqb x k'); reflexivity.
    - rewrite IH. destruct (str_eqb_spec x k') as [->|Hx]; [|reflexivity].
      destruct (str_eqb_spec k' k); [congruence|reflexivity].
  Qed.

  (* the documented kwargs (spec_kwexcess; by bind_is_spec what the call tag computes) maps every keyword name that is NOT a
     parameter to the LAST value given for it, and holds nothing else *)
  Theorem kwexcess_lookup (ps : params) : forall (kws : list (str * E)) k,
    alookup k (MA.spec_kwexcess ps kws) = if MA.has_key k ps then None else MA.last_kw k kws.
  Proof.
    induction kws as [|[k0 v0] r IH]; intro k; [cbn; destruct (MA.has_key k ps); reflexivity|].
    cbn [MA.spec_kwexcess]. rewrite MP.last_kw_cons.
    destruct (MA.has_key k0 ps) eqn:H0.
    - rewrite IH. destruct (MA.has_key k ps) eqn:Hk; [reflexivity|].
      destruct (MA.last_kw k r); [reflexivity|].
      destruct (str_eqb_spec k k0) as [->|]; [congruence|reflexivity].
    - cbn [alookup]. destruct (str_eqb_spec k k0) as [->|Hne].
      + rewrite H0. destruct (MA.last_kw k0 r); reflexivity.
      + rewrite alookup_remove_key, IH. destruct (str_eqb_spec k k0); [congruence|].
        destruct (MA.has_key k ps); [reflexivity|]. destruct (MA.last_kw k r); reflexivity.
  Qed.

  Lemma remove_key_keys {V} k (l : list (str * V)) : map fst (MA.remove_key k l) = remove_str k (map fst l).
  Proof.
    induction l as [|[k' v] l IH]; cbn; [reflexivity|].
    destruct (str_eqb k k'); cbn; [exact IH|f_equal; exact IH].
  Qed.

  (* ... in order of FIRST appearance *)
  Theorem kwexcess_keys (ps : params) : forall (kws : list (str * E)),
    map fst (MA.spec_kwexcess ps kws) = dedup (map fst (filter (fun kv => negb (MA.has_key (fst kv) ps)) kws)).
  Proof.
    induction kws as [|[k0 v0] r IH]; [reflexivity|].
    cbn [MA.spec_kwexcess filter fst]. destruct (MA.has_key k0 ps); cbn [negb]; [exact IH|].
    cbn [map fst dedup]. f_equal. rewrite remove_key_keys, IH. reflexivity.
  Qed.

  Lemma remove_str_not_in k l : ~ In k (remove_str k l).
  Proof.
    induction l as [|x l IH]; cbn; [tauto|]. destruct (str_eqb_spec k x) as [->|Hne]; [exact IH|].
    cbn. intros [H|H]; [congruence|exact (IH H)].
  Qed.

  Lemma remove_str_subset k x l : In x (remove_str k l) -> In x l.
  Proof.
    induction l as [|y l IH]; cbn; [tauto|]. destruct (str_eqb k y); cbn; [auto|]. intros [H|H]; auto.
  Qed.

  Lemma remove_str_nodup k l : NoDup l -> NoDup (remove_str k l).
  Proof.
    induction 1 as [|x l Hx Hnd IH]; cbn; [constructor|].
    destruct (str_eqb k x); [exact IH|]. constructor; [|exact IH]. intro H. apply Hx. eapply remove_str_subset, H.
  Qed.

  Lemma dedup_nodup l : NoDup (dedup l).
  Proof.
    induction l as [|x l IH]; cbn; constructor.
    - apply remove_str_not_in.
    - apply remove_str_nodup, IH.
  Qed.

  Theorem kwexcess_nodup (ps : params) (kws : list (str * E)) : NoDup (map fst (MA.spec_kwexcess ps kws)).
  Proof. rewrite kwexcess_keys. apply dedup_nodup. Qed.

End Binding.

Lemma dict_set_same {V} k (v : V) l : MA.dict_set k v l = dict_set k v l.
Proof. induction l as [|[k' v'] l IH]; cbn; [reflexivity|]. destruct (str_eqb k k'); [reflexivity|]. rewrite IH. reflexivity. Qed.

Lemma last_named_is_last_kw x (a : list (str * expr)) : last_named x a = MA.last_kw x a.
Proof. induction a as [|[k e] r IH]; cbn; [reflexivity|]. rewrite IH. reflexivity. Qed.

Lemma last_named_nodup x (l : list (str * expr)) : NoDup (map fst l) -> last_named x l = alookup x l.
Proof.
  induction l as [|[k e] r IH]; cbn; [reflexivity|]. intro Hnd. inversion Hnd as [|? ? Hk Hr]; subst.
  rewrite (IH Hr). destruct (str_eqb_spec x k) as [->|_]; [|destruct (alookup x r); reflexivity].
  rewrite (alookup_not_in k r Hk). reflexivity.
Qed.

Lemma has_key_fresh {V} k (acc : list (str * V)) rest : NoDup (map fst acc ++ k :: rest) -> MA.has_key k acc = false.
Proof.
  intro Hnd. destruct (MA.has_key k acc) eqn:Hk; [|reflexivity]. exfalso. apply MP.has_key_In in Hk.
  apply NoDup_remove_2 in Hnd. apply Hnd, in_or_app. left. exact Hk.
Qed.

Lemma dict_set_nodup {V} k (v : V) (l : list (str * V)) : NoDup (map fst l) -> NoDup (map fst (MA.dict_set k v l)).
Proof.
  intro Hnd. destruct (MA.has_key k l) eqn:Hk.
  - rewrite (MP.dict_set_keys k v l Hk). exact Hnd.
  - rewrite (MP.dict_set_absent k v l Hk), map_app. cbn.
    apply MP.nodup_snoc; [exact Hnd|]. intro Hx. apply MP.has_key_In in Hx. congruence.
Qed.

(* Parameter.parse: the parameter names of a macro are distinct, whatever was written *)
Theorem norm_params_nodup ps : NoDup (map fst (norm_params ps)).
Proof.
  unfold norm_params.
  assert (G : forall acc : list (str * option expr), NoDup (map fst acc) ->
              NoDup (map fst (fold_left (fun a p => MA.dict_set (fst p) (snd p) a) ps acc))).
  { induction ps as [|[p d] ps IH]; intros acc Hacc; cbn; [exact Hacc|].
    apply IH. apply dict_set_nodup. exact Hacc. }
  apply G. constructor.
Qed.

(* ... and a signature written without a repeated name is kept as it is *)
Lemma fold_dict_set_fresh (ps : list (str * option expr)) : forall acc,
  NoDup (map fst acc ++ map fst ps) ->
  fold_left (fun a p => MA.dict_set (fst p) (snd p) a) ps acc = acc ++ ps.
Proof.
  induction ps as [|[p d] ps IH]; intros acc Hnd; cbn; [rewrite app_nil_r; reflexivity|].
  rewrite (MP.dict_set_absent p d acc (has_key_fresh _ _ _ Hnd)). rewrite IH.
  - rewrite <- app_assoc. reflexivity.
  - rewrite map_app. cbn. rewrite <- app_assoc. exact Hnd.
Qed.

Theorem norm_params_id ps : NoDup (map fst ps) -> norm_params ps = ps.
Proof. intro H. unfold norm_params. rewrite fold_dict_set_fresh; [reflexivity|exact H]. Qed.

Section Evaluation.
  Variable uk : ukind.
  Variable c : ctx.          (* the CALLER's context, as it is when the call tag is rendered *)

  Lemma bind_eval_lookup : forall args acc nm,
    bind_eval uk c args acc = Ok nm -> NoDup (map fst args) ->
    (forall p oe, In (p, oe) args -> exists v, eval_opt uk c oe = Ok v /\ alookup p nm = Some v) /\
    (forall x, ~ In x (map fst args) -> alookup x nm = alookup x acc).
  Proof.
    induction args as [|[p oe] r IH]; intros acc nm H Hnd.
    - cbn in H. inversion H; subst. split; [intros ? ? []|reflexivity].
    - cbn [bind_eval] in H. apply bind_ok in H. destruct H as (v & Ev & H). fold (eval_opt uk c oe) in Ev.
      inversion Hnd as [|? ? Hp Hnd']; subst.
      destruct (IH _ _ H Hnd') as [IH1 IH2]. split.
      + intros q oq [Heq|Hin].
        * inversion Heq; subst. exists v. split; [exact Ev|].
          rewrite (IH2 q Hp). apply alookup_dict_set_same.
        * apply IH1, Hin.
      + intros x Hx. cbn in Hx. rewrite IH2 by tauto. apply alookup_dict_set_other. intro; subst; tauto.
  Qed.

  (* with: every argument is evaluated in the context OUTSIDE the block; a repeated name keeps its last value *)
  Theorem eval_kwargs_lookup : forall args acc nw x,
    eval_kwargs uk c args acc = Ok nw ->
    match last_named x args with
    | Some e => exists v, eval_expr uk c e = Ok v /\ alookup x nw = Some v
    | None => alookup x nw = alookup x acc
    end.
  Proof.
    induction args as [|[k e] r IH]; intros acc nw x H.
    - cbn in H. inversion H; subst. reflexivity.
    - cbn [eval_kwargs] in H. apply bind_ok in H. destruct H as (v & Ev & H).
      specialize (IH _ _ x H). cbn [last_named]. destruct (last_named x r) as [e'|]; [exact IH|].
      rewrite IH, alookup_dict_set. destruct (str_eqb x k); [exists v; split; [exact Ev|reflexivity]|reflexivity].
  Qed.

  (* ... left to right: the tag fails exactly when some argument fails, with the error of the FIRST such argument *)
  Theorem eval_kwargs_first_error : forall args acc x,
    eval_kwargs uk c args acc = Err x ->
    exists pre k e post, args = pre ++ (k, e) :: post /\ eval_expr uk c e = Err x /\
      forall k' e', In (k', e') pre -> exists v, eval_expr uk c e' = Ok v.
  Proof.
    induction args as [|[k e] r IH]; intros acc x H; [discriminate|].
    cbn [eval_kwargs] in H. unfold bind in H. destruct (eval_expr uk c e) as [v|y|] eqn:Ev; try discriminate.
    - destruct (IH _ _ H) as (pre & k1 & e1 & post & -> & He & Hpre).
      exists ((k, e) :: pre), k1, e1, post. repeat split; [exact He|].
      intros k' e' [Heq|Hin]; [inversion Heq; subst; eexists; exact Ev|exact (Hpre _ _ Hin)].
    - inversion H; subst. exists [], k, e, r. repeat split; [exact Ev|intros ? ? []].
  Qed.

  (* distinct new names are appended in order *)
  Lemma eval_kwargs_keys : forall l acc kx,
    eval_kwargs uk c l acc = Ok kx -> NoDup (map fst acc ++ map fst l) -> map fst kx = map fst acc ++ map fst l.
  Proof.
    induction l as [|[k e] r IH]; intros acc kx H Hnd.
    - cbn in H. inversion H; subst. cbn. now rewrite app_nil_r.
    - cbn [eval_kwargs] in H. apply bind_ok in H. destruct H as (v & _ & H).
      rewrite <- dict_set_same, (MP.dict_set_absent k v acc (has_key_fresh _ _ _ Hnd)) in H.
      rewrite (IH _ _ H); rewrite map_app; cbn; rewrite <- app_assoc; [reflexivity | exact Hnd].
  Qed.

  (* a call that gets its namespace evaluated, in c: the surplus positional arguments, the surplus keywords, then the
     expression of every parameter *)
  Lemma call_namespace_ok ps pos kws nm :
    NoDup (map fst ps) -> call_namespace uk c ps pos kws = Ok nm ->
    exists xs kx,
      eval_args uk c (skipn (length ps) pos) = Ok xs /\
      eval_kwargs uk c (MA.spec_kwexcess ps kws) [] = Ok kx /\
      bind_eval uk c (MA.spec_args ps 0 pos kws) [(s_args, VList xs); (s_kwargs, VDict kx)] = Ok nm /\
      forall x, ~ In x (map fst ps) -> alookup x nm = alookup x [(s_args, VList xs); (s_kwargs, VDict kx)].
  Proof.
    intros Hnd H. unfold call_namespace in H. rewrite (MP.bind_is_spec ps pos kws Hnd) in H.
    cbn [MA.spec_bind MA.b_excess MA.b_kwexcess MA.b_args] in H.
    apply bind_ok in H. destruct H as (xs & Hx & H). apply bind_ok in H. destruct H as (kx & Hk & H).
    exists xs, kx. repeat split; [exact Hx | exact Hk | exact H |].
    destruct (bind_eval_lookup _ _ _ H) as [_ B2]; [rewrite spec_args_keys; exact Hnd|].
    intros x Hn. apply B2. rewrite spec_args_keys. exact Hn.
  Qed.

  (* the value a parameter has inside the macro: the expression the documented rule chooses for it, evaluated in the
     CALLER's context c -- also when that expression is the parameter's DEFAULT *)
  Theorem call_namespace_param ps pos kws nm j p d :
    NoDup (map fst ps) -> call_namespace uk c ps pos kws = Ok nm -> nth_error ps j = Some (p, d) ->
    exists v, eval_opt uk c (chosen p j d pos kws) = Ok v /\ alookup p nm = Some v.
  Proof.
    intros Hnd H Hj. destruct (call_namespace_ok _ _ _ _ Hnd H) as (xs & kx & _ & _ & Hb & _).
    destruct (bind_eval_lookup _ _ _ Hb) as [B1 _]; [rewrite spec_args_keys; exact Hnd|].
    pose proof (spec_args_lookup ps 0 j pos kws p d Hnd Hj) as Hp. apply alookup_In in Hp.
    unfold chosen. rewrite last_named_is_last_kw. exact (B1 _ _ Hp).
  Qed.

  Lemma s_args_ne_kwargs : s_args <> s_kwargs.
  Proof. intro H. vm_compute in H. discriminate. Qed.

  (* args: the positional arguments beyond the parameters, in order, each evaluated in the caller's context *)
  Theorem call_namespace_args ps pos kws nm :
    NoDup (map fst ps) -> call_namespace uk c ps pos kws = Ok nm -> ~ In s_args (map fst ps) ->
    exists xs, eval_args uk c (skipn (length ps) pos) = Ok xs /\ alookup s_args nm = Some (VList xs).
  Proof.
    intros Hnd H Hn. destruct (call_namespace_ok _ _ _ _ Hnd H) as (xs & kx & Hx & _ & _ & Hout).
    exists xs. split; [exact Hx|]. rewrite (Hout _ Hn). cbn [alookup]. rewrite str_eqb_refl. reflexivity.
  Qed.

  (* kwargs: the keyword arguments naming no parameter -- names in order of first appearance, each with the value of
     its LAST occurrence, evaluated in the caller's context; keywords naming a parameter are not in it *)
  Theorem call_namespace_kwargs ps pos kws nm :
    NoDup (map fst ps) -> call_namespace uk c ps pos kws = Ok nm -> ~ In s_kwargs (map fst ps) ->
    exists kx, alookup s_kwargs nm = Some (VDict kx) /\
      map fst kx = dedup (map fst (filter (fun kv => negb (MA.has_key (fst kv) ps)) kws)) /\
      forall k, match (if MA.has_key k ps then None else last_named k kws) with
                | Some e => exists v, eval_expr uk c e = Ok v /\ alookup k kx = Some v
                | None => alookup k kx = None
                end.
  Proof.
    intros Hnd H Hn. destruct (call_namespace_ok _ _ _ _ Hnd H) as (xs & kx & _ & Hk & _ & Hout).
    exists kx. repeat split.
    - rewrite (Hout _ Hn). cbn [alookup].
      destruct (str_eqb_spec s_kwargs s_args) as [Heq|_]; [exfalso; apply s_args_ne_kwargs; congruence|].
      rewrite str_eqb_refl. reflexivity.
    - rewrite (eval_kwargs_keys _ _ _ Hk) by apply kwexcess_nodup. apply kwexcess_keys.
    - (* kwargs is a dict, so the last binding of k in it is its only one *)
      intro k. pose proof (eval_kwargs_lookup _ _ _ k Hk) as Hl.
      rewrite (last_named_nodup k _ (kwexcess_nodup ps kws)), kwexcess_lookup, <- last_named_is_last_kw in Hl. exact Hl.
  Qed.
End Evaluation.

(* with the default undefined type no evaluation raises: a call always gets its namespace *)
Theorem call_namespace_default_total c ps pos kws : exists nm, call_namespace UDefault c ps pos kws = Ok nm.
Proof.
  unfold call_namespace, bind.
  assert (B : forall l acc, exists nm, bind_eval UDefault c l acc = Ok nm).
  { induction l as [|[p [e|]] l IH]; intro acc; cbn; [eexists; reflexivity| |]; unfold bind.
    - destruct (eval_expr_default_total c e) as [v ->]. apply IH.
    - apply IH. }
  destruct (eval_args_default_total c (MA.b_excess (MA.bind ps pos kws))) as [xs ->].
  destruct (eval_kwargs_default_total c (MA.b_kwexcess (MA.bind ps pos kws)) []) as [kx ->]. apply B.
Qed.

(* the variables a call's expressions can see are those of the caller; the macro table plays no part *)
Lemma eval_expr_set_macros uk c m e : eval_expr uk (set_macros c m) e = eval_expr uk c e.
Proof.
  assert (S : forall root ks, eval_simple uk (set_macros c m) root ks = eval_simple uk c root ks) by reflexivity.
  destruct e as [l|[root segs]]; [reflexivity|]. cbn [eval_expr]. unfold eval_path. cbn [p_segs p_root].
  assert (G : eval_segs uk (set_macros c m) segs = eval_segs uk c segs).
  { induction segs as [|[st k|r ks] segs IH]; cbn [eval_segs]; [reflexivity| |]; rewrite IH; [reflexivity|].
    rewrite S. reflexivity. }
  rewrite G. reflexivity.
Qed.

Lemma call_namespace_set_macros uk c m ps pos kws :
  call_namespace uk (set_macros c m) ps pos kws = call_namespace uk c ps pos kws.
Proof.
  unfold call_namespace.
  assert (A : forall es, eval_args uk (set_macros c m) es = eval_args uk c es).
  { induction es as [|e es IH]; cbn [eval_args]; [reflexivity|]. rewrite eval_expr_set_macros, IH. reflexivity. }
  assert (K : forall l acc, eval_kwargs uk (set_macros c m) l acc = eval_kwargs uk c l acc).
  { induction l as [|[k e] l IH]; intro acc; cbn [eval_kwargs]; [reflexivity|]. rewrite eval_expr_set_macros.
    unfold bind. destruct (eval_expr uk c e); [apply IH|reflexivity|reflexivity]. }
  assert (B : forall l acc, bind_eval uk (set_macros c m) l acc = bind_eval uk c l acc).
  { induction l as [|[p [e|]] l IH]; intro acc; cbn [bind_eval]; [reflexivity| |].
    - rewrite eval_expr_set_macros. unfold bind. destruct (eval_expr uk c e); [apply IH|reflexivity|reflexivity].
    - unfold bind. apply IH. }
  rewrite A. unfold bind. destruct (eval_args uk c _); [|reflexivity|reflexivity].
  rewrite K. destruct (eval_kwargs uk c _ []); [|reflexivity|reflexivity]. apply B.
Qed.

Section Exec.
  Variable E : env.
  Notation uk := (e_uk E).

  (* a macro tag evaluates nothing and prints nothing: it (re)binds its name to (parameters, block) *)
  Theorem macro_defines f name ps body c :
    mexec (S f) E (NMacro name ps body) c = Done (set_macros c (dict_set name (ps, body) (macros c))) [] Normal.
  Proof. reflexivity. Qed.

  (* a defined name: the namespace is computed in the caller's context c, the block runs in a copy holding only that
     namespace and the global data (plus the macro table), and the caller's context comes back unchanged *)
  Theorem call_defined f name a c ps body :
    alookup name (macros c) = Some (ps, body) ->
    mexec (S f) E (NCall name a) c =
    lift (call_namespace uk c (norm_params ps) (call_pos a) (call_kws a)) c (fun nm =>
      match seq_nodes (mexec f E) body (copy_call c nm) with Fuel => Fuel | Done _ out s => Done c out s end).
  Proof. intro H. unfold mexec. cbn [mexec_gen mexec_step]. unfold call_step. rewrite H. reflexivity. Qed.

  (* NO STATE IS KEPT ON THE CALL NODE: executing a definition and then a call -- from ANY context, whatever was defined,
     called or bound by this very call node before -- binds against the definition just rendered and the caller's
     variables; the macro table itself does not influence the namespace *)
  Theorem call_uses_current_definition f name ps body a c :
    seq_nodes (mexec (S f) E) [NMacro name ps body; NCall name a] c =
    let c1 := set_macros c (dict_set name (ps, body) (macros c)) in
    lift (call_namespace uk c (norm_params ps) (call_pos a) (call_kws a)) c1 (fun nm =>
      match seq_nodes (mexec f E) body (copy_call c1 nm) with Fuel => Fuel | Done _ out s => Done c1 out s end).
  Proof.
    cbn [seq_nodes]. rewrite macro_defines. cbn zeta.
    rewrite (call_defined f name a _ ps body) by (cbn; apply alookup_dict_set_same).
    rewrite call_namespace_set_macros. unfold lift.
    destruct (call_namespace uk c _ _ _) as [nm|x|]; [|reflexivity|reflexivity].
    destruct (seq_nodes (mexec f E) body _) as [c2 o2 s2|]; [|reflexivity].
    destruct s2; cbn; rewrite ?app_nil_r; reflexivity.
  Qed.

  Theorem macro_block_saw_no_macro_old c nm : macros (copy_call_old c nm) = [].
  Proof. reflexivity. Qed.

  (* include: the partial's nodes run on the caller's own context (one namespace pushed, popped afterwards) *)
  Theorem include_runs_in_place f name body c :
    is_disabled TInclude c = false -> alookup name (e_loader E) = Some body ->
    mexec (S f) E (NInclude name None []) c = after (run_template (e_mode E) true true (mexec f E) body (push c [])) pop.
  Proof. intros Hd Hl. unfold mexec. cbn [mexec_gen mexec_step exec_step]. rewrite Hd, Hl. reflexivity. Qed.

  (* ... so a macro defined by an included partial can be called after the include tag *)
  Theorem include_defines_macro f name m ps b c :
    is_disabled TInclude c = false -> alookup name (e_loader E) = Some [NMacro m ps b] ->
    exists c', mexec (S (S f)) E (NInclude name None []) c = Done c' [] Normal /\
      alookup m (macros c') = Some (ps, b) /\ scopes c' = scopes c /\ locals c' = locals c.
  Proof.
    intros Hd Hl. rewrite (include_runs_in_place _ _ _ _ Hd Hl).
    unfold run_template. cbn [tmpl_nodes]. rewrite macro_defines. cbn.
    eexists. split; [reflexivity|]. cbn. split; [apply alookup_dict_set_same|split; reflexivity].
  Qed.

  (* whatever the block does, a call hands the caller's context back *)
  Lemma call_step_returns_caller cp run name a c : ends (call_step cp E run name a c) (fun c' _ => c' = c).
  Proof.
    unfold call_step. destruct (alookup name (macros c)) as [[ps body]|]; (apply ends_lift; [reflexivity|]).
    - intros nm _. apply ends_back, ends_const; reflexivity.
    - intros t _. exact eq_refl.
  Qed.

  (* balance: after ANY node, on ANY signal, the pushed namespaces are what they were *)
  Lemma mexec_step_frame cp run : frame_ok run -> frame_ok (mexec_step cp E run).
  Proof.
    intros Hrun n c c' o s H.
    destruct n; try exact (exec_step_frame E run Hrun _ c c' o s H).
    exact (ends_done _ _ _ _ _ (ends_same_frame _ _ (call_step_returns_caller cp run _ _ c)) H).
  Qed.

  Theorem mexec_frame f : frame_ok (mexec f E).
  Proof.
    induction f as [|f IH]; [intros n c c' o s H; discriminate|].
    unfold mexec in *. cbn [mexec_gen]. apply mexec_step_frame. exact IH.
  Qed.

  (* the with tag itself: namespace from the OUTER context, pushed for the block, popped after it *)
  Theorem with_step f args body c :
    mexec (S f) E (NWith args body) c =
    lift (eval_kwargs uk c args []) c (fun nw => after (seq_nodes (mexec f E) body (push c nw)) pop).
  Proof. reflexivity. Qed.

End Exec.
