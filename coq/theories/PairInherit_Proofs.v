(* C01 -- proofs about PairInherit.v.

   [Rel P m1 m2]: whenever every event of the run of m1 satisfies P, the runs of m1 and m2 end the same way, leave the
   same block stacks and produce the same events up to the API marker.  P is the guard: it says for which events the two
   primitives (template loading, item access) must agree between the APIs.

   inherit_async_eq        render_async ~ render (guard: agreement on what is reached OUTSIDE block.super; inside it both
                           APIs run the synchronous copies, so nothing is required there)
   super_sync_in_async     render_async ~ the fully asynchronous render (guard: agreement on what is reached INSIDE
                           block.super: no awaitable-only data, no asynchronous-only template source)
   and witnesses that each guard is needed.

   [AllTr Q m]: every event of every run of m satisfies Q.
   rs_events               started at level b of block.super the synchronous renderer emits synchronous events only,
                           all of them marked as inside block.super if b
   sync_modes, async_modes which API every event goes through: render the synchronous one; render_async the
                           asynchronous one outside block.super, the synchronous one inside

   Lemma names: X_sa is Rel between the synchronous and the asynchronous copy of X; X_rel, Rel between two copies of X
   given Rel between the renderers handed to them; X_all, AllTr for X (X_all_s / X_all_a: one copy). *)
From Coq Require Import String List.
From LiquidVerif Require Import Prelude PairInherit.
Import ListNotations.
Local Open Scope list_scope.

Definition tr {A} (r : outc A * store * list ev) : list ev := snd r.

Definition Rel {A} (P : ev -> Prop) (m1 m2 : M A) : Prop :=
  forall st, Forall P (tr (m1 st)) -> erase_run (m1 st) = erase_run (m2 st).

Lemma Rel_refl {A} (P : ev -> Prop) (m : M A) : Rel P m m.
Proof. intros st _. reflexivity. Qed.

Lemma Rel_bind {A B} (P : ev -> Prop) (m1 m2 : M A) (f1 f2 : A -> M B) :
  Rel P m1 m2 -> (forall a, Rel P (f1 a) (f2 a)) -> Rel P (mbind m1 f1) (mbind m2 f2).
Proof.
  intros Hm Hf st. unfold mbind. specialize (Hm st).
  destruct (m1 st) as [[o1 s1] t1]. destruct (m2 st) as [[o2 s2] t2]. cbn [tr snd erase_run] in Hm.
  destruct o1 as [a| |e|].
  2-4: cbn [tr snd]; intro HP; specialize (Hm HP); inversion Hm; subst; cbn [erase_run]; congruence.
  specialize (Hf a s1). destruct (f1 a s1) as [[r1 s1'] t1']. cbn [tr snd erase_run] in *. intro HP.
  apply Forall_app in HP. destruct HP as [HP1 HP2].
  specialize (Hm HP1). inversion Hm; subst.
  specialize (Hf HP2). destruct (f2 a s2) as [[r2 s2'] t2'].
  cbn [erase_run] in *. inversion Hf; subst. unfold erase in *. rewrite !map_app. congruence.
Qed.

Lemma Rel_catch (P : ev -> Prop) (m1 m2 : M unit) : Rel P m1 m2 -> Rel P (catch_stop m1) (catch_stop m2).
Proof.
  intros Hm st. unfold catch_stop. specialize (Hm st).
  destruct (m1 st) as [[o1 s1] t1]. destruct (m2 st) as [[o2 s2] t2].
  destruct o1; cbn [tr snd]; intro HP; specialize (Hm HP); cbn [erase_run] in Hm; inversion Hm; subst; cbn [erase_run]; congruence.
Qed.

Lemma Rel_emit (P : ev -> Prop) (e1 e2 : ev) : (P e1 -> erase1 e1 = erase1 e2) -> Rel P (emit e1) (emit e2).
Proof.
  intros H st HP. apply Forall_inv in HP. cbn. rewrite (H HP). reflexivity.
Qed.

(* agreement of the two primitives between the APIs *)
Definition agree (w : world) (e : ev) : Prop :=
  match e with
  | EText _ => True
  | EVal _ _ x _ => w_acc w Sync x = w_acc w Async x
  | ELoad _ _ n _ => w_ld w Sync n = w_ld w Async n
  end.
(* the guard P demands agreement for events raised at block.super level b *)
Definition Good (P : ev -> Prop) (w : world) (b : bool) : Prop := forall e, ev_sup e = b -> P e -> agree w e.

Lemma load_sa P w c n : Good P w (c_super c) -> Rel P (load w Sync c n) (load w Async c n).
Proof.
  intros G st. unfold load.
  (* found or not, the one event of the synchronous load is under the guard *)
  destruct (w_ld w Sync n) as [t|] eqn:E; cbn; intro HP; apply Forall_inv, G in HP; try reflexivity;
    cbn in HP; rewrite <- HP, E; reflexivity.
Qed.

Lemma access_sa P w c x : Good P w (c_super c) -> Rel P (access w Sync c x) (access w Async c x).
Proof.
  intro G. unfold access. apply Rel_emit. intro HP. apply G in HP; [|reflexivity]. cbn in *. rewrite HP. reflexivity.
Qed.

Lemma stb_sa P w c seen t :
  Good P w (c_super c) -> Rel P (stack_template_blocks_sync w c seen t) (stack_template_blocks_async w c seen t).
Proof.
  intro G. unfold stack_template_blocks_sync, stack_template_blocks_async.
  apply Rel_bind; [apply Rel_refl|]. intros [p|]; [|apply Rel_refl].
  destruct (smem p seen); [apply Rel_refl|].
  apply Rel_bind; [apply load_sa; assumption|]. intro. apply Rel_refl.
Qed.

Lemma build_loop_sa P w c : Good P w (c_super c) -> forall fuel seen base next,
  Rel P (build_loop_sync fuel w c seen base next) (build_loop_async fuel w c seen base next).
Proof.
  intro G. induction fuel as [|f IH]; intros; cbn [build_loop_sync build_loop_async]; [apply Rel_refl|].
  apply Rel_bind; [apply stb_sa; assumption|]. intros [[p t']|]; [apply IH|apply Rel_refl].
Qed.

Lemma build_sa P w c fuel t :
  Good P w (c_super c) -> Rel P (build_stacks_sync fuel w c t) (build_stacks_async fuel w c t).
Proof.
  intro G. unfold build_stacks_sync, build_stacks_async.
  apply Rel_bind; [apply stb_sa; assumption|]. intros [[p t']|]; [apply build_loop_sa; assumption|apply Rel_refl].
Qed.

(* the copies of BlockNode.render_to_output, given related renderers for the bodies *)
Lemma block_rel P (rec1 rec2 : ctx -> list node -> M unit) c name req body :
  (forall c' ns, c_super c' = c_super c -> Rel P (rec1 c' ns) (rec2 c' ns)) ->
  Rel P (block_sync rec1 c name req body) (block_async rec2 c name req body).
Proof.
  intro H. unfold block_sync, block_async.
  apply Rel_bind; [apply Rel_refl|]. intro s.
  destruct (stack_of name (s_stacks s)) as [|a l].
  - destruct req; [apply Rel_refl|]. apply H. reflexivity.
  - apply Rel_bind; [apply Rel_refl|]. intro it. destruct (it_required it); [apply Rel_refl|]. apply H. reflexivity.
Qed.

(* the extends tag and the include tag: a template obtained somehow, then rendered by the given renderer *)
Lemma extends_rel P (rec1 rec2 : ctx -> list node -> M unit) c (b1 b2 : M template) :
  Rel P b1 b2 ->
  (forall c' ns, c_super c' = c_super c -> Rel P (rec1 c' ns) (rec2 c' ns)) ->
  Rel P (doM base <- b1; doM _ <- catch_stop (rec1 c base); doM _ <- clear_stacks; @stop unit)
        (doM base <- b2; doM _ <- catch_stop (rec2 c base); doM _ <- clear_stacks; stop).
Proof.
  intros Hb H. apply Rel_bind; [exact Hb|]. intro base.
  apply Rel_bind; [apply Rel_catch; apply H; reflexivity|]. intro. apply Rel_refl.
Qed.

Lemma include_rel P (rec1 rec2 : ctx -> list node -> M unit) c (l1 l2 : M template) :
  Rel P l1 l2 ->
  (forall c' ns, c_super c' = c_super c -> Rel P (rec1 c' ns) (rec2 c' ns)) ->
  Rel P (doM t <- l1; catch_stop (rec1 (with_template c t) t)) (doM t <- l2; catch_stop (rec2 (with_template c t) t)).
Proof. intros Hl H. apply Rel_bind; [exact Hl|]. intro t. apply Rel_catch. apply H. reflexivity. Qed.

Lemma super_rel P (rec1 rec2 : ctx -> list node -> M unit) c :
  (forall c' ns, c_super c' = true -> Rel P (rec1 c' ns) (rec2 c' ns)) ->
  Rel P (blockdrop_super rec1 c) (blockdrop_super rec2 c).
Proof.
  intro H. unfold blockdrop_super. destruct (c_block c) as [[p|]|]; try apply Rel_refl.
  apply Rel_bind; [apply Rel_refl|]. intro it. apply H. reflexivity.
Qed.

(* render vs render_async: agreement is needed only outside block.super *)
Lemma rs_ra P w : Good P w false -> forall fuel c ns, c_super c = false -> Rel P (rs fuel w c ns) (ra fuel w c ns).
Proof.
  intro G. induction fuel as [|f IH]; intros c ns Hc; cbn [rs ra]; [apply Rel_refl|].
  destruct ns as [|n r]; [apply Rel_refl|].
  apply Rel_bind; [|intro; apply IH; assumption].
  assert (Hrec : forall c' ns', c_super c' = c_super c -> Rel P (rs f w c' ns') (ra f w c' ns')).
  { intros c' ns' E. apply IH. congruence. }
  assert (Gc : Good P w (c_super c)) by (rewrite Hc; exact G).
  destruct n.
  - apply Rel_refl.
  - apply access_sa; assumption.
  - apply Rel_refl.                                     (* block.super: the same call, the same synchronous renderer *)
  - apply block_rel; assumption.
  - apply extends_rel; [apply build_sa|]; assumption.
  - apply include_rel; [apply load_sa|]; assumption.
Qed.

(* the synchronous renderer vs the fully asynchronous one *)
Lemma rs_rafull P w : Good P w true -> forall fuel c ns, Good P w (c_super c) -> Rel P (rs fuel w c ns) (ra_full fuel w c ns).
Proof.
  intro G. induction fuel as [|f IH]; intros c ns Gc; cbn [rs ra_full]; [apply Rel_refl|].
  destruct ns as [|n r]; [apply Rel_refl|].
  apply Rel_bind; [|intro; apply IH; assumption].
  assert (Hrec : forall c' ns', c_super c' = c_super c -> Rel P (rs f w c' ns') (ra_full f w c' ns')).
  { intros c' ns' E. apply IH. rewrite E. assumption. }
  destruct n.
  - apply Rel_refl.
  - apply access_sa; assumption.
  - apply super_rel. intros c' ns' E. apply IH. rewrite E. assumption.
  - apply block_rel; assumption.
  - apply extends_rel; [apply build_sa|]; assumption.
  - apply include_rel; [apply load_sa|]; assumption.
Qed.

(* render_async vs the fully asynchronous render: agreement is needed only inside block.super *)
Lemma ra_rafull P w : Good P w true -> forall fuel c ns, c_super c = false -> Rel P (ra fuel w c ns) (ra_full fuel w c ns).
Proof.
  intro G. induction fuel as [|f IH]; intros c ns Hc; cbn [ra ra_full]; [apply Rel_refl|].
  destruct ns as [|n r]; [apply Rel_refl|].
  apply Rel_bind; [|intro; apply IH; assumption].
  assert (Hrec : forall c' ns', c_super c' = c_super c -> Rel P (ra f w c' ns') (ra_full f w c' ns')).
  { intros c' ns' E. apply IH. congruence. }
  destruct n.
  - apply Rel_refl.
  - apply Rel_refl.
  - apply super_rel. intros c' ns' E. apply rs_rafull; [assumption|]. rewrite E. assumption.
  - (* block_async and block_sync are the same text in PairInherit.v *)
    change (block_async (ra f w) c name required body) with (block_sync (ra f w) c name required body).
    apply block_rel; assumption.
  - apply extends_rel; [apply Rel_refl|assumption].
  - apply include_rel; [apply Rel_refl|assumption].
Qed.

(* guards over the events of a run *)
Definition agree_outside_super (w : world) (e : ev) : Prop := ev_sup e = false -> agree w e.
Definition agree_inside_super (w : world) (e : ev) : Prop := ev_sup e = true -> agree w e.

(* BoundTemplate.render_async against BoundTemplate.render, for every world, template and state of the block stacks:
   if the two APIs agree on every template loaded and every item read OUTSIDE block.super during the synchronous
   render, the asynchronous render ends the same way, leaves the same stacks and produces the same output and the
   same sequence of loads.  Nothing is asked of what is reached inside block.super. *)
Theorem inherit_async_eq fuel w t st :
  Forall (agree_outside_super w) (tr (render_sync fuel w t st)) ->
  erase_run (render_async fuel w t st) = erase_run (render_sync fuel w t st).
Proof.
  intro H. symmetry. apply (Rel_catch (agree_outside_super w) (rs fuel w (ctx0 t) t) (ra fuel w (ctx0 t) t)); [|exact H].
  apply rs_ra; [intros e E He; exact (He E) | reflexivity].
Qed.

(* in particular for data and loaders that do not tell the APIs apart (the property's inputs) *)
Corollary inherit_async_eq_plain fuel w t st :
  (forall x, w_acc w Async x = w_acc w Sync x) -> (forall n, w_ld w Async n = w_ld w Sync n) ->
  erase_run (render_async fuel w t st) = erase_run (render_sync fuel w t st).
Proof.
  intros Ha Hl. apply inherit_async_eq. apply Forall_forall. intros e _ _. destruct e; cbn; auto.
Qed.

(* the two copies of _build_block_stacks on their own, in any context and for any state of the stacks *)
Theorem build_stacks_async_eq fuel w c t st :
  Forall (agree w) (tr (build_stacks_sync fuel w c t st)) ->
  erase_run (build_stacks_async fuel w c t st) = erase_run (build_stacks_sync fuel w c t st).
Proof.
  intro H. symmetry. apply (build_sa (agree w)); [|exact H]. intros e _ He. exact He.
Qed.

(* block.super under render_async: the code against the fully asynchronous render.  If the APIs agree on everything
   reached INSIDE block.super during the asynchronous render -- no item that reads differently when awaited, no
   template that only the asynchronous loader has -- rendering the parent block synchronously is not observable. *)
Theorem super_sync_in_async fuel w t st :
  Forall (agree_inside_super w) (tr (render_async fuel w t st)) ->
  erase_run (render_async fuel w t st) = erase_run (render_async_full fuel w t st).
Proof.
  apply (Rel_catch (agree_inside_super w) (ra fuel w (ctx0 t) t) (ra_full fuel w (ctx0 t) t)).
  apply ra_rafull; [intros e E He; exact (He E) | reflexivity].
Qed.

(* the fully asynchronous render against the synchronous one: agreement everywhere *)
Theorem full_async_eq fuel w t st :
  Forall (agree w) (tr (render_sync fuel w t st)) ->
  erase_run (render_async_full fuel w t st) = erase_run (render_sync fuel w t st).
Proof.
  intro H. symmetry. apply (Rel_catch (agree w) (rs fuel w (ctx0 t) t) (ra_full fuel w (ctx0 t) t)); [|exact H].
  apply rs_rafull; intros e _ He; exact He.
Qed.

Definition AllTr {A} (Q : ev -> Prop) (m : M A) : Prop := forall st, Forall Q (tr (m st)).

Lemma AllTr_bind {A B} (Q : ev -> Prop) (m : M A) (f : A -> M B) :
  AllTr Q m -> (forall a, AllTr Q (f a)) -> AllTr Q (mbind m f).
Proof.
  intros Hm Hf st. unfold mbind. specialize (Hm st). destruct (m st) as [[o s1] t1]. cbn [tr snd] in Hm.
  destruct o as [a| |e|]; cbn [tr snd]; try assumption.
  specialize (Hf a s1). destruct (f a s1) as [[r s2] t2]. cbn [tr snd] in *. apply Forall_app. split; assumption.
Qed.
Lemma AllTr_catch (Q : ev -> Prop) (m : M unit) : AllTr Q m -> AllTr Q (catch_stop m).
Proof.
  intros Hm st. unfold catch_stop. specialize (Hm st). destruct (m st) as [[o s1] t1]. destruct o; exact Hm.
Qed.
Lemma AllTr_impl {A} (Q Q' : ev -> Prop) (m : M A) : (forall e, Q e -> Q' e) -> AllTr Q m -> AllTr Q' m.
Proof. intros H Hm st. exact (Forall_impl Q' H (Hm st)). Qed.
Lemma AllTr_emit (Q : ev -> Prop) e : Q e -> AllTr Q (emit e).  Proof. intros H st. repeat constructor. exact H. Qed.
(* ret, fail, stop, fuelM, getS, putS *)
Lemma AllTr_silent {A} (Q : ev -> Prop) (m : M A) : (forall st, tr (m st) = []) -> AllTr Q m.
Proof. intros H st. rewrite H. constructor. Qed.

Ltac leaf := apply AllTr_silent; reflexivity.

Section Modes.
  Variable Q : ev -> Prop.
  Variable w : world.

  Lemma load_all m c n : (forall f, Q (ELoad m (c_super c) n f)) -> AllTr Q (load w m c n).
  Proof.
    intro H. unfold load. destruct (w_ld w m n); (apply AllTr_bind; [apply AllTr_emit, H|]); intro; leaf.
  Qed.

  Lemma stack_blocks_all t : AllTr Q (stack_blocks t).
  Proof.
    unfold stack_blocks. destruct (Nat.ltb 1 _); [leaf|]. destruct (has_dup _ _); [leaf|].
    apply AllTr_bind; [leaf|]. intro. apply AllTr_bind; [leaf|]. intro. leaf.
  Qed.
  Lemma heap_get_all a : AllTr Q (heap_get a).
  Proof. unfold heap_get. apply AllTr_bind; [leaf|]. intro s. destruct (nth_error _ _); leaf. Qed.

  Lemma block_all (rec : ctx -> list node -> M unit) c name req body :
    (forall c' ns, c_super c' = c_super c -> AllTr Q (rec c' ns)) -> AllTr Q (block_sync rec c name req body).
  Proof.
    intro H. unfold block_sync. apply AllTr_bind; [leaf|]. intro s. destruct (stack_of _ _).
    - destruct req; [leaf|]. apply H. reflexivity.
    - apply AllTr_bind; [apply heap_get_all|]. intro it. destruct (it_required it); [leaf|]. apply H. reflexivity.
  Qed.

  Lemma super_all (rec : ctx -> list node -> M unit) c :
    (forall c' ns, c_super c' = true -> AllTr Q (rec c' ns)) -> AllTr Q (blockdrop_super rec c).
  Proof.
    intro H. unfold blockdrop_super. destruct (c_block c) as [[p|]|]; [|leaf|leaf].
    apply AllTr_bind; [apply heap_get_all|]. intro it. apply H. reflexivity.
  Qed.

  Lemma extends_all (rec : ctx -> list node -> M unit) c (b : M template) :
    AllTr Q b -> (forall c' ns, c_super c' = c_super c -> AllTr Q (rec c' ns)) ->
    AllTr Q (doM base <- b; doM _ <- catch_stop (rec c base); doM _ <- clear_stacks; @stop unit).
  Proof.
    intros Hb H. apply AllTr_bind; [exact Hb|]. intro base.
    apply AllTr_bind; [apply AllTr_catch, H; reflexivity|]. intro. apply AllTr_bind; [|intro; leaf].
    unfold clear_stacks. apply AllTr_bind; [leaf|]. intro. leaf.
  Qed.

  Lemma include_all (rec : ctx -> list node -> M unit) c (l : M template) :
    AllTr Q l -> (forall c' ns, c_super c' = c_super c -> AllTr Q (rec c' ns)) ->
    AllTr Q (doM t <- l; catch_stop (rec (with_template c t) t)).
  Proof. intros Hl H. apply AllTr_bind; [exact Hl|]. intro t. apply AllTr_catch, H. reflexivity. Qed.

  (* the two copies of the stack builder load through their own API, at the level of the context *)
  Lemma stb_all_s c seen t :
    (forall n f, Q (ELoad Sync (c_super c) n f)) -> AllTr Q (stack_template_blocks_sync w c seen t).
  Proof.
    intro H. unfold stack_template_blocks_sync. apply AllTr_bind; [apply stack_blocks_all|]. intros [p|]; [|leaf].
    destruct (smem p seen); [leaf|]. apply AllTr_bind; [apply load_all, H|]. intro. leaf.
  Qed.
  Lemma stb_all_a c seen t :
    (forall n f, Q (ELoad Async (c_super c) n f)) -> AllTr Q (stack_template_blocks_async w c seen t).
  Proof.
    intro H. unfold stack_template_blocks_async. apply AllTr_bind; [apply stack_blocks_all|]. intros [p|]; [|leaf].
    destruct (smem p seen); [leaf|]. apply AllTr_bind; [apply load_all, H|]. intro. leaf.
  Qed.
  Lemma build_loop_all_s c : (forall n f, Q (ELoad Sync (c_super c) n f)) ->
    forall fuel seen base next, AllTr Q (build_loop_sync fuel w c seen base next).
  Proof.
    intro H. induction fuel as [|f IH]; intros; cbn [build_loop_sync]; [leaf|].
    apply AllTr_bind; [apply stb_all_s, H|]. intros [[p t']|]; [apply IH|leaf].
  Qed.
  Lemma build_loop_all_a c : (forall n f, Q (ELoad Async (c_super c) n f)) ->
    forall fuel seen base next, AllTr Q (build_loop_async fuel w c seen base next).
  Proof.
    intro H. induction fuel as [|f IH]; intros; cbn [build_loop_async]; [leaf|].
    apply AllTr_bind; [apply stb_all_a, H|]. intros [[p t']|]; [apply IH|leaf].
  Qed.
  Lemma build_all_s c t fuel :
    (forall n f, Q (ELoad Sync (c_super c) n f)) -> AllTr Q (build_stacks_sync fuel w c t).
  Proof.
    intro H. unfold build_stacks_sync. apply AllTr_bind; [apply stb_all_s, H|].
    intros [[p t']|]; [apply build_loop_all_s, H|leaf].
  Qed.
  Lemma build_all_a c t fuel :
    (forall n f, Q (ELoad Async (c_super c) n f)) -> AllTr Q (build_stacks_async fuel w c t).
  Proof.
    intro H. unfold build_stacks_async. apply AllTr_bind; [apply stb_all_a, H|].
    intros [[p t']|]; [apply build_loop_all_a, H|leaf].
  Qed.
End Modes.

(* what the synchronous renderer emits when started at level b of block.super: the synchronous API only, and inside
   block.super every event is marked so *)
Definition sync_from (b : bool) (e : ev) : Prop :=
  match ev_mode e with None => True | Some m => m = Sync /\ (b = true -> ev_sup e = true) end.

Lemma sync_from_true b e : sync_from true e -> sync_from b e.
Proof. unfold sync_from. destruct (ev_mode e); [|trivial]. intros [E S]. split; [exact E|]. intros _. apply S. reflexivity. Qed.

Lemma rs_events w : forall fuel c ns, AllTr (sync_from (c_super c)) (rs fuel w c ns).
Proof.
  induction fuel as [|f IH]; intros c ns; cbn [rs]; [leaf|]. destruct ns as [|n r]; [leaf|].
  apply AllTr_bind; [|intro; apply IH].
  assert (Hrec : forall c' ns', c_super c' = c_super c -> AllTr (sync_from (c_super c)) (rs f w c' ns')).
  { intros c' ns' E. rewrite <- E. apply IH. }
  assert (Hload : forall n f, sync_from (c_super c) (ELoad Sync (c_super c) n f)) by (split; trivial).
  destruct n.
  - apply AllTr_emit. exact I.
  - apply AllTr_emit. split; trivial.
  - apply super_all. intros c' ns' E. apply (AllTr_impl (sync_from true)); [apply sync_from_true|]. rewrite <- E. apply IH.
  - apply block_all. exact Hrec.
  - apply extends_all; [apply build_all_s, Hload|exact Hrec].
  - apply include_all; [apply load_all, Hload|exact Hrec].
Qed.

(* the API an event of level sup must go through under render_async *)
Definition async_mode_ok (e : ev) : Prop :=
  match ev_mode e with None => True | Some m => m = (if ev_sup e then Sync else Async) end.
Definition sync_mode_ok (e : ev) : Prop := ev_mode e <> Some Async.

Lemma ra_modes w : forall fuel c ns, c_super c = false -> AllTr async_mode_ok (ra fuel w c ns).
Proof.
  induction fuel as [|f IH]; intros c ns Hc; cbn [ra]; [leaf|]. destruct ns as [|n r]; [leaf|].
  apply AllTr_bind; [|intro; apply IH; assumption].
  assert (Hrec : forall c' ns', c_super c' = c_super c -> AllTr async_mode_ok (ra f w c' ns')).
  { intros c' ns' E. apply IH. congruence. }
  assert (Hload : forall n f, async_mode_ok (ELoad Async (c_super c) n f)) by (intros; rewrite Hc; reflexivity).
  destruct n.
  - apply AllTr_emit. exact I.
  - apply AllTr_emit. unfold async_mode_ok. cbn. rewrite Hc. reflexivity.
  - (* block.super: the synchronous renderer, started inside *)
    apply super_all. intros c' ns' E. apply (AllTr_impl (sync_from (c_super c'))); [|apply rs_events].
    rewrite E. unfold sync_from, async_mode_ok. intro e. destruct (ev_mode e); [|trivial]. intros [-> S]. rewrite S; reflexivity.
  - change (block_async (ra f w) c name required body) with (block_sync (ra f w) c name required body).
    apply block_all. exact Hrec.
  - apply extends_all; [apply build_all_a, Hload|exact Hrec].
  - apply include_all; [apply load_all, Hload|exact Hrec].
Qed.

(* render: only the synchronous API.  render_async: the asynchronous API everywhere except while a parent block is
   rendered through block.super, where it is the synchronous API -- for every world, template and state. *)
Theorem sync_modes fuel w t st : Forall sync_mode_ok (tr (render_sync fuel w t st)).
Proof.
  apply (AllTr_impl (sync_from false)); [|apply AllTr_catch, (rs_events w fuel (ctx0 t))].
  unfold sync_from, sync_mode_ok. intro e. destruct (ev_mode e); [intros [-> _]|]; discriminate.
Qed.

Theorem async_modes fuel w t st : Forall async_mode_ok (tr (render_async fuel w t st)).
Proof. unfold render_async, render_with_context_async. apply AllTr_catch. apply ra_modes. reflexivity. Qed.

(* child: {% extends 'base' %}{% block c %}{{ d.x }}{{ block.super }}{% endblock %}   base: {% block c %}{{ d.x }}{% endblock %} *)
Definition kx : str := ilit "x".
Definition wit_templates : list (str * template) :=
  [(ilit "child", [NExtends (ilit "base"); NBlock (ilit "c") false [NVar kx; NSuper]]);
   (ilit "base", [NBlock (ilit "c") false [NVar kx]])].
Definition wit_child : template := [NExtends (ilit "base"); NBlock (ilit "c") false [NVar kx; NSuper]].
(* an object whose item reads 1 when awaited and 0 otherwise *)
Definition wit_world : world :=
  {| w_ld := fun _ n => alookup n wit_templates; w_acc := fun m _ => match m with Sync => 0%N | Async => 1%N end |}.

(* such an object is outside the property: render and render_async print different things already in the child ... *)
Theorem inherit_async_eq_guard_needed :
  erase_run (render_async 20 wit_world wit_child store0) <> erase_run (render_sync 20 wit_world wit_child store0).
Proof. vm_compute. discriminate. Qed.

(* ... and under render_async the SAME item reads 1 in the child and 0 in the parent block reached through block.super,
   where the fully asynchronous render reads 1 both times *)
Theorem super_sync_in_async_guard_needed :
  out_of (tr (render_async 20 wit_world wit_child store0)) = [OVal Async kx; OVal Sync kx] /\
  erase_run (render_async 20 wit_world wit_child store0) <> erase_run (render_async_full 20 wit_world wit_child store0).
Proof. split; [vm_compute; reflexivity | vm_compute; discriminate]. Qed.

(* a template only the asynchronous loader has, included from a parent block: found by render_async when the block is
   rendered directly, TemplateNotFound when it is reached through block.super *)
Definition wit2_templates : list (str * template) :=
  [(ilit "base", [NBlock (ilit "c") false [NInclude (ilit "p")]])].
Definition wit2_child : template := [NExtends (ilit "base"); NBlock (ilit "c") false [NSuper]].
Definition wit2_world : world :=
  {| w_ld := fun m n => match m with
                        | Async => if str_eqb n (ilit "p") then Some [NText 1] else alookup n wit2_templates
                        | Sync => alookup n wit2_templates
                        end;
     w_acc := fun _ _ => 0%N |}.
Theorem super_loads_synchronously :
  fst (fst (render_async 20 wit2_world wit2_child store0)) = Fail ENotFound /\
  fst (fst (render_async_full 20 wit2_world wit2_child store0)) = Val tt /\
  fst (fst (render_async 20 wit2_world [NBlock (ilit "c") false [NInclude (ilit "p")]] store0)) = Val tt.
Proof. vm_compute. repeat split. Qed.

(* the guards are satisfiable, with block.super rendered: ordinary data *)
Definition plain_world : world := {| w_ld := fun _ n => alookup n wit_templates; w_acc := fun _ _ => 7%N |}.
Example guards_hold :
  Forall (agree_outside_super plain_world) (tr (render_sync 20 plain_world wit_child store0)) /\
  Forall (agree_inside_super plain_world) (tr (render_async 20 plain_world wit_child store0)) /\
  out_of (tr (render_async 20 plain_world wit_child store0)) = [OVal Async kx; OVal Sync kx].
Proof.
  split; [|split]; [| |vm_compute; reflexivity]; apply Forall_forall; intros e _ _; destruct e; cbn; reflexivity.
Qed.
