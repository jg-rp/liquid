(* Lex_Proofs.v — basic lemmas about the scanner primitives of Lex.v (prefix test, whitespace runs, close, cclose,
   find_first, the optional hyphen) on sources of the shape  known-prefix ++ rest. *)
From Coq Require Import ZifyBool.
From LiquidVerif Require Import Prelude Lex LexSpec.
Import ListNotations.
Arguments hy : simpl never.
Arguments nl : simpl never.
Arguments hash : simpl never.
Arguments lbrace : simpl never.

Lemma skipn_app_len {A} (a s : list A) : skipn (length a) (a ++ s) = s.
Proof. induction a; simpl; auto. Qed.

Lemma skipn_app_len_add {A} (a s : list A) k : skipn (length a + k) (a ++ s) = skipn k s.
Proof. induction a; simpl; auto. Qed.

Lemma skipn_S_app {A} (a : list A) c x : skipn (S (length a)) (a ++ c :: x) = x.
Proof. induction a; simpl; auto. Qed.

Lemma firstn_app_len {A} (a s : list A) : firstn (length a) (a ++ s) = a.
Proof. induction a; simpl; congruence. Qed.

Lemma skipn_add {A} (s : list A) a b : skipn (a + b) s = skipn b (skipn a s).
Proof. revert s; induction a; intros s; simpl; auto. destruct s; simpl; auto. destruct b; reflexivity. Qed.

Lemma sub_0_len (a s : str) : sub (a ++ s) 0 (length a) = a.
Proof. unfold sub. simpl. apply firstn_app_len. Qed.

Lemma prefixb_app p s : prefixb p (p ++ s) = true.
Proof. induction p; simpl; auto. rewrite N.eqb_refl. auto. Qed.

Lemma prefixb_app_r p v z : prefixb p v = true -> prefixb p (v ++ z) = true.
Proof.
  revert v; induction p as [|a p IH]; intros v H; [reflexivity|].
  destruct v as [|c v]; simpl in *; [discriminate|]. apply andb_true_iff in H as [H1 H2]. rewrite H1. simpl. auto.
Qed.

Lemma prefixb_hd_neq p c s : nonempty p = true -> hd0 p <> c -> prefixb p (c :: s) = false.
Proof. destruct p; simpl; try discriminate. intros _ H. destruct (N.eqb_spec n c); auto. contradiction. Qed.

Lemma prefixb_nil p : nonempty p = true -> prefixb p [] = false.
Proof. destruct p; simpl; auto; discriminate. Qed.

Lemma clash_false a b s : clash a b = false -> prefixb a (b ++ s) = false.
Proof.
  unfold clash. revert b. induction a as [|x a IH]; intros b H.
  - simpl in H. discriminate.
  - destruct b as [|y b].
    + simpl in H. discriminate.
    + simpl in *. destruct (N.eqb_spec x y) as [->|Hn]; simpl; auto.
      rewrite N.eqb_refl in H. simpl in H. apply IH. exact H.
Qed.

Lemma clash_sym a b : clash a b = clash b a.
Proof. unfold clash. apply orb_comm. Qed.

Lemma space_not_word c : is_space c = true -> is_word c = false.
Proof. unfold is_space, is_word. intros H. lia. Qed.

Lemma hy_not_space : is_space hy = false. Proof. reflexivity. Qed.
Lemma hy_not_word : is_word hy = false. Proof. reflexivity. Qed.

Lemma ws_len_app w s : all_space w = true -> ws_len (w ++ s) = length w + ws_len s.
Proof.
  unfold all_space. induction w as [|c w IH]; simpl; auto. intros H. apply andb_true_iff in H as [Hc Hw].
  rewrite Hc. rewrite IH; auto.
Qed.

Lemma ws_len_stop c s : is_space c = false -> ws_len (c :: s) = 0.
Proof. intros H. simpl. rewrite H. reflexivity. Qed.

Lemma ws_len_nil : ws_len [] = 0. Proof. reflexivity. Qed.

Lemma word_len_stop c s : is_word c = false -> word_len (c :: s) = 0.
Proof. intros H. simpl. rewrite H. reflexivity. Qed.

Lemma word_len_app w s : forallb is_word w = true -> word_len (w ++ s) = length w + word_len s.
Proof.
  induction w as [|c w IH]; simpl; auto. intros H. apply andb_true_iff in H as [Hc Hw].
  rewrite Hc. rewrite IH; auto.
Qed.

(* a "stopper": a string whose first character (if any) is not whitespace *)
Definition stops (s : str) : Prop := match s with c :: _ => is_space c = false | [] => True end.

Lemma ws_len_stops s : stops s -> ws_len s = 0.
Proof. destruct s; simpl; auto. intros ->. reflexivity. Qed.

Lemma ws_len_app_stops w s : all_space w = true -> stops s -> ws_len (w ++ s) = length w.
Proof. intros Hw Hs. rewrite ws_len_app, ws_len_stops; auto. Qed.

Lemma hyp_length b : length (hyp b) = if b then 1 else 0.
Proof. destruct b; reflexivity. Qed.

(* cbody_ok/cclose_none/body_ok/close_none: alphabet guard of Lex_C10_Proofs.v.
   (-?)e  matches nowhere inside a body none of whose characters is e's first character and which does not end in a
   hyphen *)
Definition cbody_ok (e y : str) : Prop :=
  forallb (fun c => negb (N.eqb c (hd0 e))) y = true /\ (y <> [] -> N.eqb (last0 y) hy = false).

Lemma cbody_ok_tl e c y : y <> [] -> cbody_ok e (c :: y) -> cbody_ok e y.
Proof.
  intros Hy [H1 H2]. split.
  - simpl in H1. apply andb_true_iff in H1. tauto.
  - intros _. unfold last0 in *. destruct y; [congruence|]. apply H2. discriminate.
Qed.

Lemma cclose_none e y z : nonempty e = true -> y <> [] -> cbody_ok e y -> cclose e (y ++ z) = None.
Proof.
  intros He Hne [H1 H2]. destruct y as [|c y]; [congruence|]. unfold cclose. simpl app.
  simpl in H1. apply andb_true_iff in H1 as [Hc1 Hy1]. apply negb_true_iff in Hc1.
  assert (Hpe : prefixb e (c :: y ++ z) = false).
  { apply prefixb_hd_neq; auto. intro E. rewrite E, N.eqb_refl in Hc1. discriminate. }
  rewrite Hpe. cbn [prefixb].
  destruct (N.eqb_spec hy c) as [Ec|Nc]; simpl; auto.
  destruct y as [|c2 y].
  - pose proof (H2 ltac:(discriminate)) as H. unfold last0 in H. simpl in H. subst c.
    rewrite N.eqb_refl in H. discriminate.
  - simpl in Hy1. apply andb_true_iff in Hy1 as [Hc2 _]. apply negb_true_iff in Hc2.
    simpl app. rewrite prefixb_hd_neq; auto. intro E. rewrite E, N.eqb_refl in Hc2. discriminate.
Qed.

Section Close.
  Variable e : str.
  Hypothesis e_ne : nonempty e = true.
  Hypothesis e_nsp : is_space (hd0 e) = false.
  Hypothesis e_nhy : N.eqb (hd0 e) hy = false.

  Lemma stops_e s : stops (e ++ s).
  Proof. destruct e; simpl in *; try discriminate. exact e_nsp. Qed.

  Lemma stops_hyp_e r s : stops (hyp r ++ e ++ s).
  Proof. destruct r; simpl. reflexivity. apply stops_e. Qed.

  Lemma prefixb_hy_e s : prefixb (hy :: e) (e ++ s) = false.
  Proof.
    clear e_nsp. destruct e as [|c e']; cbn [nonempty hd0 app prefixb] in *; try discriminate.
    rewrite N.eqb_sym, e_nhy. reflexivity.
  Qed.

  (* the closing sub-pattern matches right here: optional whitespace, optional hyphen, e *)
  Lemma close_here w r rest : all_space w = true ->
    close e (w ++ hyp r ++ e ++ rest) = Some (r, length (w ++ hyp r ++ e)).
  Proof.
    intros Hw. unfold close. rewrite ws_len_app_stops by (auto using stops_hyp_e).
    rewrite skipn_app_len, !app_length. destruct r; cbn [hyp app length].
    - change (hy :: e ++ rest) with ((hy :: e) ++ rest). rewrite prefixb_app, <- Nat.add_assoc. reflexivity.
    - rewrite prefixb_hy_e, prefixb_app. reflexivity.
  Qed.

  Lemma close_space c l : is_space c = true ->
    close e (c :: l) = match close e l with Some (h, n) => Some (h, S n) | None => None end.
  Proof.
    intros Hc. unfold close. cbn [ws_len]. rewrite Hc. cbn [skipn].
    destruct (prefixb (hy :: e) (skipn (ws_len l) l)); [reflexivity|].
    destruct (prefixb e (skipn (ws_len l) l)); reflexivity.
  Qed.

  (* ... and does not match anywhere inside a body none of whose characters is e's first character and which
     does not end in whitespace or a hyphen *)
  Definition body_ok (y : str) : Prop :=
    forallb (fun c => negb (N.eqb c (hd0 e))) y = true /\
    (y <> [] -> is_space (last0 y) = false /\ N.eqb (last0 y) hy = false).

  Lemma body_ok_tl c y : y <> [] -> body_ok (c :: y) -> body_ok y.
  Proof.
    intros Hy [H1 H2]. split.
    - simpl in H1. apply andb_true_iff in H1. tauto.
    - intros _. unfold last0 in *. destruct y; [congruence|]. apply H2. discriminate.
  Qed.

  Lemma close_none y z : y <> [] -> body_ok y -> close e (y ++ z) = None.
  Proof.
    induction y as [|c y IH]; intros Hne Hok; [congruence|].
    destruct (is_space c) eqn:Hc.
    - destruct y as [|c2 y].
      + destruct Hok as [_ H2]. unfold last0 in H2. simpl in H2. destruct (H2 ltac:(discriminate)). congruence.
      + simpl app. rewrite close_space by exact Hc. change (c2 :: y ++ z) with ((c2 :: y) ++ z).
        rewrite IH; auto. discriminate. eapply body_ok_tl; eauto. discriminate.
    - (* no leading whitespace: [close] tries what [cclose] tries *)
      assert (Hcc : cclose e ((c :: y) ++ z) = None).
      { apply cclose_none; auto. destruct Hok as [H1 H2]. split; [exact H1 | intros H; apply H2, H]. }
      unfold cclose in Hcc. unfold close. cbn [app] in Hcc |- *. rewrite ws_len_stop by exact Hc. cbn [skipn].
      destruct (prefixb (hy :: e) (c :: y ++ z)); [discriminate|].
      destruct (prefixb e (c :: y ++ z)); [discriminate|reflexivity].
  Qed.
End Close.

Lemma find_first_here {A} (f : str -> option (A * nat)) s a n :
  f s = Some (a, n) -> find_first f s = Some (0, a, n).
Proof. intros H. destruct s; simpl; rewrite H; reflexivity. Qed.

Lemma find_first_skip {A} (f : str -> option (A * nat)) y z a n :
  (forall k, k < length y -> f (skipn k (y ++ z)) = None) ->
  f z = Some (a, n) ->
  find_first f (y ++ z) = Some (length y, a, length y + n).
Proof.
  induction y as [|c y IH]; intros Hn Hz; simpl; [apply find_first_here; exact Hz|].
  pose proof (Hn 0 ltac:(simpl; lia)) as H0. simpl in H0. rewrite H0.
  rewrite IH; auto. intros k Hk. apply (Hn (S k)). simpl. lia.
Qed.

(* a match found by the search is a match of f at the position found *)
Lemma find_first_hit {A} (f : str -> option (A * nat)) : forall s j a n,
  find_first f s = Some (j, a, n) -> exists m, f (skipn j s) = Some (a, m) /\ n = j + m /\ j <= length s.
Proof.
  induction s as [|c s IH]; intros j a n H; simpl in H.
  - destruct (f []) as [[a0 n0]|] eqn:E; [|discriminate]. injection H as <- <- <-. exists n0. simpl. auto.
  - destruct (f (c :: s)) as [[a0 n0]|] eqn:E.
    + injection H as <- <- <-. exists n0. simpl. repeat split; auto. lia.
    + destruct (find_first f s) as [[[j0 a0] n0]|]; [|discriminate].
      injection H as <- <- <-. destruct (IH _ _ _ eq_refl) as (m & Hm & Hn & Hj).
      exists m. simpl. repeat split; auto; lia.
Qed.

Lemma cclose_here e r rest : nonempty e = true -> N.eqb (hd0 e) hy = false ->
  cclose e (hyp r ++ e ++ rest) = Some (r, length (hyp r ++ e)).
Proof.
  intros H1 H2. unfold cclose. destruct r; cbn [hyp app length].
  - change (hy :: e ++ rest) with ((hy :: e) ++ rest). rewrite prefixb_app. reflexivity.
  - rewrite (prefixb_hy_e e H1 H2). rewrite prefixb_app. reflexivity.
Qed.

Lemma with_hyphen_yes_none {A} s k (f : nat -> option A) x :
  skipn k s = hy :: x -> f (S k) = None -> with_hyphen s k f = f k.
Proof. intros H1 H2. unfold with_hyphen. rewrite H1, N.eqb_refl, H2. reflexivity. Qed.

Lemma with_hyphen_no {A} s k (f : nat -> option A) :
  hyphen_next (skipn k s) = false -> with_hyphen s k f = f k.
Proof.
  unfold with_hyphen, hyphen_next. destruct (skipn k s) as [|c x]; auto. intros ->. reflexivity.
Qed.

(* both cases of the optional hyphen at once: the source continues with the marker [hyp l] and then something that
   does not begin with a hyphen *)
Lemma with_hyphen_hyp {A} s pre l X (f : nat -> option A) res :
  skipn (length pre) s = hyp l ++ X -> hyphen_next X = false ->
  f (length (pre ++ hyp l)) = Some res -> with_hyphen s (length pre) f = Some res.
Proof.
  intros Hs HX Hf. unfold with_hyphen. rewrite Hs. destruct l; cbn [hyp app] in *.
  - rewrite app_length, Nat.add_1_r in Hf. rewrite N.eqb_refl, Hf. reflexivity.
  - rewrite app_nil_r in Hf. destruct X as [|c X]; [exact Hf|]. cbn [hyphen_next] in HX. rewrite HX. exact Hf.
Qed.
