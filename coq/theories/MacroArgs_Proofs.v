(* The binding computed by the call tag (MacroArgs.bind) is the documented one (bind_is_spec).  The positional loop is
   the specification without keywords (spec_args_nokw).  The keyword loop acts on a dict entry by entry: the last keyword
   of an entry's name replaces its value (updg; Some for the parameters, id for kwargs).  Names that are neither
   parameters nor yet in kwargs are appended in order of first appearance, which is spec_kwexcess with the names already
   there removed (bind_kw_excess). *)
From LiquidVerif Require Import Prelude PyPrims MacroArgs.

Section BindProofs.
  Context {E : Type}.
  Notation params := (@params E).

  Lemma bind_pos_nil (ps : params) : bind_pos ps [] = (ps, []).
  Proof. destruct ps as [|[n d] ps]; reflexivity. Qed.

  Lemma bind_pos_excess (ps : params) : forall pos, snd (bind_pos ps pos) = skipn (length ps) pos.
  Proof.
    induction ps as [|[n d] ps IH]; intros pos; [reflexivity|].
    destruct pos as [|e pos]; [reflexivity|]. cbn [bind_pos length skipn].
    specialize (IH pos). destruct (bind_pos ps pos) as [r ex]. exact IH.
  Qed.

  Lemma skipn_nth (pos : list E) : forall i,
    nth_error pos i = hd_error (skipn i pos) /\ skipn (S i) pos = tl (skipn i pos).
  Proof. induction pos as [|x pos IH]; intros [|i]; cbn; try (split; reflexivity). apply IH. Qed.

  Lemma spec_args_nokw (ps : params) : forall i pos,
    spec_args ps i pos [] = fst (bind_pos ps (skipn i pos)).
  Proof.
    induction ps as [|[n d] ps IH]; intros i pos; [reflexivity|].
    cbn [spec_args last_kw]. destruct (skipn_nth pos i) as [-> Hs]. rewrite IH, Hs.
    destruct (skipn i pos) as [|e rest]; cbn [hd_error tl bind_pos fst].
    - rewrite bind_pos_nil. reflexivity.
    - destruct (bind_pos ps rest) as [r ex]. reflexivity.
  Qed.

  (* what the keyword loop does to a dict entry: the last keyword of its name, if any, replaces the value
     (f = Some for the parameters, whose values are optional; f = id for kwargs) *)
  Definition updg {V} (f : E -> V) (kws : list (str * E)) (p : str * V) : str * V :=
    (fst p, match last_kw (fst p) kws with Some v => f v | None => snd p end).

  Lemma has_key_In {V} k (l : list (str * V)) : has_key k l = true <-> In k (map fst l).
  Proof.
    induction l as [|[k' v] l IH]; cbn; [split; [discriminate|tauto]|].
    rewrite orb_true_iff, IH, str_eqb_eq. split; intros [H|H]; auto.
  Qed.

  Lemma has_key_keys {V W} k (a : list (str * V)) (b : list (str * W)) : map fst a = map fst b -> has_key k a = has_key k b.
  Proof. intro H. apply eq_true_iff_eq. now rewrite !has_key_In, H. Qed.

  Lemma dict_set_keys {V} k (v : V) l : has_key k l = true -> map fst (dict_set k v l) = map fst l.
  Proof.
    induction l as [|[k' v'] l IH]; cbn; [discriminate|].
    destruct (str_eqb_spec k k') as [->|Hne]; cbn; [reflexivity|]. intro H. f_equal. apply IH, H.
  Qed.

  Lemma has_key_dict_set_in {V} k (v : V) l x : has_key k l = true -> has_key x (dict_set k v l) = has_key x l.
  Proof. intro H. apply has_key_keys, dict_set_keys, H. Qed.

  Lemma nodup_snoc {A} (l : list A) k : NoDup l -> ~ In k l -> NoDup (l ++ [k]).
  Proof. intros Hl Hk. apply (NoDup_Add (Add_app k l [])). rewrite app_nil_r. split; assumption. Qed.

  Lemma dict_set_absent {V} k (v : V) l : has_key k l = false -> dict_set k v l = l ++ [(k, v)].
  Proof.
    induction l as [|[k' v'] l IH]; cbn; [reflexivity|].
    destruct (str_eqb k k'); cbn; [discriminate|]. intro H. f_equal. apply IH, H.
  Qed.

  (* on a dict (unique keys) an in-place assignment changes exactly the entry of that key *)
  Lemma dict_set_map {V} k (v : V) l : NoDup (map fst l) -> has_key k l = true ->
    dict_set k v l = map (fun p => if str_eqb (fst p) k then (fst p, v) else p) l.
  Proof.
    induction l as [|[k' v'] l IH]; cbn; [discriminate|]. intros Hnd Hk.
    inversion Hnd as [|? ? Hnin Hnd']; subst.
    destruct (str_eqb_spec k k') as [->|Hne].
    - rewrite str_eqb_refl. cbn. f_equal.
      rewrite <- (map_id l) at 1. apply map_ext_in. intros [k2 v2] Hin. cbn.
      destruct (str_eqb_spec k2 k') as [->|_]; [|reflexivity].
      exfalso. apply Hnin. apply in_map_iff. exists (k', v2). split; [reflexivity|exact Hin].
    - cbn in Hk. destruct (str_eqb_spec k' k) as [Heq|_]; [congruence|]. f_equal. apply IH; assumption.
  Qed.

  Lemma last_kw_cons n k v (r : list (str * E)) :
    last_kw n ((k, v) :: r) = match last_kw n r with Some x => Some x | None => if str_eqb n k then Some v else None end.
  Proof. reflexivity. Qed.

  Lemma updg_nil {V} (f : E -> V) l : map (updg f []) l = l.
  Proof. rewrite <- (map_id l) at 2. apply map_ext. intros [n w]. reflexivity. Qed.

  (* an assignment in place acts as one more keyword *)
  Lemma updg_dict_set {V} (f : E -> V) k v r l : NoDup (map fst l) -> has_key k l = true ->
    map (updg f r) (dict_set k (f v) l) = map (updg f ((k, v) :: r)) l.
  Proof.
    intros Hnd Hk. rewrite dict_set_map by assumption. rewrite map_map. apply map_ext. intros [n w].
    unfold updg. cbn [fst snd]. rewrite last_kw_cons.
    destruct (str_eqb_spec n k) as [->|Hne]; cbn [fst snd]; destruct (last_kw _ r); reflexivity.
  Qed.

  (* a keyword that names no entry changes none *)
  Lemma updg_other {V} (f : E -> V) k v r l : ~ In k (map fst l) -> map (updg f ((k, v) :: r)) l = map (updg f r) l.
  Proof.
    intro Hnin. apply map_ext_in. intros [n w] Hin. unfold updg. cbn [fst snd]. rewrite last_kw_cons.
    destruct (last_kw n r); [reflexivity|]. destruct (str_eqb_spec n k) as [->|_]; [|reflexivity].
    exfalso. apply Hnin. apply in_map_iff. exists (k, w). split; [reflexivity | exact Hin].
  Qed.

  Lemma bind_kw_args : forall (kws : list (str * E)) (a : params) ex,
    NoDup (map fst a) -> fst (bind_kw kws a ex) = map (updg Some kws) a.
  Proof.
    induction kws as [|[k v] r IH]; intros a ex Hnd; [symmetry; apply updg_nil|].
    cbn [bind_kw]. destruct (has_key k a) eqn:Hk.
    - rewrite IH by (rewrite dict_set_keys by exact Hk; exact Hnd). now apply updg_dict_set.
    - rewrite IH by exact Hnd. symmetry. apply updg_other. intro H. apply has_key_In in H. congruence.
  Qed.

  Lemma bind_kw_keys : forall (kws : list (str * E)) (a : params) ex k,
    has_key k (fst (bind_kw kws a ex)) = has_key k a.
  Proof.
    induction kws as [|[k0 v] r IH]; intros a ex k; [reflexivity|]. cbn [bind_kw].
    destruct (has_key k0 a) eqn:Hk; rewrite IH; [apply has_key_dict_set_in, Hk | reflexivity].
  Qed.

  (* bind_kw_excess goes through only generalised to a kwargs that already holds ks: it appends spec_kwexcess less ks *)
  Fixpoint remove_keys {V} (ks : list str) (l : list (str * V)) : list (str * V) :=
    match ks with [] => l | k :: r => remove_keys r (remove_key k l) end.

  Lemma remove_key_comm {V} a b (l : list (str * V)) : remove_key a (remove_key b l) = remove_key b (remove_key a l).
  Proof.
    induction l as [|[k v] l IH]; cbn; [reflexivity|].
    destruct (str_eqb a k) eqn:Ea, (str_eqb b k) eqn:Eb; cbn; rewrite ?Ea, ?Eb; congruence.
  Qed.

  Lemma remove_key_idem {V} a (l : list (str * V)) : remove_key a (remove_key a l) = remove_key a l.
  Proof.
    induction l as [|[k v] l IH]; cbn; [reflexivity|].
    destruct (str_eqb a k) eqn:Ea; cbn; rewrite ?Ea; congruence.
  Qed.

  Lemma remove_keys_remove_key {V} ks a (l : list (str * V)) :
    remove_keys ks (remove_key a l) = remove_key a (remove_keys ks l).
  Proof.
    revert l. induction ks as [|k ks IH]; intro l; cbn; [reflexivity|].
    rewrite remove_key_comm. apply IH.
  Qed.

  Lemma remove_keys_absorb {V} ks a (l : list (str * V)) : In a ks ->
    remove_keys ks (remove_key a l) = remove_keys ks l.
  Proof.
    revert l. induction ks as [|k ks IH]; intros l Hin; [destruct Hin|]. cbn.
    destruct Hin as [->|Hin].
    - rewrite remove_key_idem. reflexivity.
    - rewrite remove_key_comm. apply IH, Hin.
  Qed.

  Lemma remove_keys_cons_in {V} ks a (v : V) l : In a ks -> remove_keys ks ((a, v) :: l) = remove_keys ks l.
  Proof.
    revert l. induction ks as [|k ks IH]; intros l Hin; [destruct Hin|]. cbn.
    destruct (str_eqb_spec k a) as [->|Hne]; [reflexivity|].
    destruct Hin as [Heq|Hin]; [congruence|]. apply IH, Hin.
  Qed.

  Lemma remove_keys_cons_out {V} ks a (v : V) l : ~ In a ks -> remove_keys ks ((a, v) :: l) = (a, v) :: remove_keys ks l.
  Proof.
    revert l. induction ks as [|k ks IH]; intros l Hnin; [reflexivity|]. cbn.
    destruct (str_eqb_spec k a) as [->|Hne]; [exfalso; apply Hnin; left; reflexivity|].
    apply IH. intro H. apply Hnin. right. exact H.
  Qed.

  Lemma remove_keys_app {V} k1 k2 (l : list (str * V)) : remove_keys (k1 ++ k2) l = remove_keys k2 (remove_keys k1 l).
  Proof. revert l. induction k1 as [|k k1 IH]; intro l; cbn; [reflexivity|]. apply IH. Qed.

  (* the last value of a non-parameter among the surplus keywords is its last value among all keywords *)
  Lemma last_kw_surplus (ps : params) k : has_key k ps = false -> forall l : list (str * E),
    last_kw k (filter (fun kv => negb (has_key (fst kv) ps)) l) = last_kw k l.
  Proof.
    intro Hk. induction l as [|[k2 v2] l IHl]; [reflexivity|]. cbn [filter fst].
    destruct (has_key k2 ps) eqn:Hk2; cbn [negb]; rewrite !last_kw_cons, IHl; [|reflexivity].
    destruct (last_kw k l); [reflexivity|]. destruct (str_eqb_spec k k2) as [->|_]; [congruence | reflexivity].
  Qed.

  (* the dict built by the keyword loop for non-parameter names *)
  Lemma bind_kw_excess (ps : params) : forall (kws : list (str * E)) (a : params) (ex : list (str * E)),
    (forall k, has_key k a = has_key k ps) -> NoDup (map fst ex) ->
    snd (bind_kw kws a ex) = map (updg id (filter (fun kv => negb (has_key (fst kv) ps)) kws)) ex
                              ++ remove_keys (map fst ex) (spec_kwexcess ps kws).
  Proof.
    induction kws as [|[k v] r IH]; intros a ex Hkeys Hnd.
    - cbn [bind_kw snd filter spec_kwexcess].
      assert (Hrm : forall ks, @remove_keys E ks [] = []) by (induction ks; auto).
      rewrite Hrm, app_nil_r. symmetry. apply updg_nil.
    - cbn [bind_kw spec_kwexcess filter fst]. rewrite Hkeys. destruct (has_key k ps) eqn:Hk; cbn [negb].
      + apply IH; [|exact Hnd].
        intro k'. rewrite has_key_dict_set_in by (rewrite Hkeys; exact Hk). apply Hkeys.
      + set (F := filter (fun kv => negb (has_key (fst kv) ps)) r).
        destruct (has_key k ex) eqn:Hkx.
        * (* the name is already in kwargs: assignment in place *)
          rewrite (IH a (dict_set k v ex) Hkeys) by (rewrite dict_set_keys by exact Hkx; exact Hnd).
          rewrite dict_set_keys by exact Hkx.
          rewrite remove_keys_cons_in by (apply has_key_In; exact Hkx).
          rewrite remove_keys_absorb by (apply has_key_In; exact Hkx).
          f_equal. exact (updg_dict_set id k v F ex Hnd Hkx).
        * (* a new name: appended *)
          rewrite dict_set_absent by exact Hkx.
          assert (Hnin : ~ In k (map fst ex)) by (intro H; apply has_key_In in H; congruence).
          rewrite (IH a (ex ++ [(k, v)]) Hkeys) by (rewrite map_app; apply nodup_snoc; assumption).
          rewrite map_app. cbn [map]. rewrite <- app_assoc. cbn [app].
          rewrite map_app. cbn [map fst]. rewrite remove_keys_app. cbn [remove_keys].
          rewrite remove_keys_cons_out by exact Hnin. rewrite remove_keys_remove_key.
          f_equal.
          -- symmetry. apply updg_other, Hnin.
          -- f_equal. unfold updg. cbn [fst snd id]. unfold F. rewrite (last_kw_surplus ps k Hk). reflexivity.
  Qed.

  Lemma spec_args_upd (ps : params) : forall i pos (kws : list (str * E)),
    spec_args ps i pos kws = map (updg Some kws) (spec_args ps i pos []).
  Proof.
    induction ps as [|[n d] ps IH]; intros i pos kws; [reflexivity|].
    cbn [spec_args map last_kw]. unfold updg at 1. cbn [fst snd]. rewrite IH. reflexivity.
  Qed.

  (* C27: the binding computed by the call tag is the documented one *)
  Theorem bind_is_spec (ps : params) pos (kws : list (str * E)) :
    NoDup (map fst ps) -> bind ps pos kws = spec_bind ps pos kws.
  Proof.
    intro Hnd. unfold bind, spec_bind.
    pose proof (bind_pos_excess ps pos) as Hex. pose proof (spec_args_nokw ps 0 pos) as Ha. cbn [skipn] in Ha.
    destruct (bind_pos ps pos) as [a1 ex] eqn:Ebp. cbn [fst snd] in *.
    assert (Hkeys1 : map fst a1 = map fst ps).
    { rewrite <- Ha. clear. generalize 0. induction ps as [|[n d] ps IH]; intro i; cbn; [reflexivity|]. f_equal. apply IH. }
    pose proof (bind_kw_args kws a1 [] ltac:(rewrite Hkeys1; exact Hnd)) as Hargs.
    pose proof (bind_kw_excess ps kws a1 []) as Hkex.
    destruct (bind_kw kws a1 []) as [a2 kex]. cbn [fst snd] in *.
    rewrite Hkex; [| | constructor].
    - cbn [map app remove_keys]. subst a2 ex. f_equal.
      rewrite <- Ha. symmetry. apply spec_args_upd.
    - intro k. apply has_key_keys, Hkeys1.
  Qed.
End BindProofs.

(* the with tag: inside the block a bound name resolves to the value of its LAST binding in the tag, evaluated in the
   context OUTSIDE the block; every other name resolves as outside *)
Fixpoint last_arg (x : str) (args : list (str * wexpr)) : option wexpr :=
  match args with
  | [] => None
  | (k, e) :: r => match last_arg x r with Some e' => Some e' | None => if str_eqb x k then Some e else None end
  end.

Lemma alookup_dict_set {V} x k (v : V) l :
  alookup x (dict_set k v l) = if str_eqb x k then Some v else alookup x l.
Proof.
  induction l as [|[k' v'] l IH]; cbn.
  - destruct (str_eqb x k); reflexivity.
  - destruct (str_eqb_spec k k') as [->|Hne]; cbn.
    + destruct (str_eqb x k'); reflexivity.
    + rewrite IH. destruct (str_eqb_spec x k') as [->|_]; [|reflexivity].
      destruct (str_eqb_spec k' k); [congruence|reflexivity].
Qed.

Lemma with_namespace_lookup c x : forall args acc,
  alookup x (with_namespace c args acc) =
  match last_arg x args with Some e => Some (weval c e) | None => alookup x acc end.
Proof.
  induction args as [|[k e] r IH]; intro acc; cbn; [reflexivity|].
  rewrite IH, alookup_dict_set. destruct (last_arg x r); [reflexivity|].
  destruct (str_eqb x k); reflexivity.
Qed.
