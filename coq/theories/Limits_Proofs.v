(* Limits_Proofs.v — part 1: structure lemmas, the generic preservation theorem, and the unary invariants
   (C06 bound, C07 output bound, C07 namespace bound).  Part 2 (Limits_Sim_Proofs.v) has the static
   characterisation of the loop limit and the two-run simulation (C08). *)
From Coq Require Import ZifyBool.
From LiquidVerif Require Import Prelude PyPrims Limits.
Import ListNotations.
Local Open Scope Z_scope.

(* ------------------------------------------------------------------ induction over nests *)
Section NodeInd.
  Variables (P : node -> Prop) (Q : list node -> Prop).
  Hypotheses
    (HText : forall t, P (Text t)) (HEcho : forall x, P (Echo x)) (HAssign : forall x t, P (Assign x t))
    (HCapture : forall x b, Q b -> P (Capture x b)) (HIfChanged : forall b, Q b -> P (IfChanged b))
    (HFor : forall n b, Q b -> P (For n b)) (HTablerow : forall n b, Q b -> P (Tablerow n b))
    (HInclude : forall b, Q b -> P (Include b)) (HIncludeArr : forall n b, Q b -> P (IncludeArr n b))
    (HRender : forall b, Q b -> P (Render b)) (HRenderFor : forall n b, Q b -> P (RenderFor n b))
    (HCall : forall b, Q b -> P (Call b))
    (HBlock : forall b, Q b -> P (Block b)) (HBlockD : forall b, Q b -> P (BlockD b))
    (HSuper : forall b, Q b -> P (Super b)) (HSuperU : P SuperU)
    (HNil : Q []) (HCons : forall x r, P x -> Q r -> Q (x :: r)).

  Fixpoint node_ind' (nd : node) : P nd :=
    let fix go (l : list node) : Q l :=
      match l with [] => HNil | x :: r => HCons x r (node_ind' x) (go r) end in
    match nd with
    | Text t => HText t | Echo x => HEcho x | Assign x t => HAssign x t
    | Capture x b => HCapture x b (go b) | IfChanged b => HIfChanged b (go b)
    | For n b => HFor n b (go b) | Tablerow n b => HTablerow n b (go b)
    | Include b => HInclude b (go b) | IncludeArr n b => HIncludeArr n b (go b)
    | Render b => HRender b (go b) | RenderFor n b => HRenderFor n b (go b)
    | Call b => HCall b (go b)
    | Block b => HBlock b (go b) | BlockD b => HBlockD b (go b)
    | Super b => HSuper b (go b) | SuperU => HSuperU
    end.

  Fixpoint list_node_ind' (l : list node) : Q l :=
    match l with [] => HNil | x :: r => HCons x r (node_ind' x) (list_node_ind' r) end.
End NodeInd.

(* ------------------------------------------------------------------ unfolding *)
Lemma exec_eq v md lim nd f :
  exec v md lim nd f =
  match nd with
  | Text t => seq (m_leaf (f_tp f)) (m_write lim t)
  | Echo x => fun s => m_write lim (lookup x s) s
  | Assign x t => m_assign v lim x t
  | Capture x body => fun s => in_child (block v md lim body (f_freeze f (s_buf s))) (fun val => m_assign v lim x val) s
  | IfChanged body => fun s => in_child (block v md lim body (f_freeze f (s_buf s))) (m_ifchanged lim) s
  | For n body =>
      if (n =? 0)%N then ret
      else seq (guard (loop_exceeded v lim f n) XLoop)
          (seq (guard (depth_exceeded lim f) XDepth)
               (iter 1 (N.to_nat n) (fun _ => block v md lim body (f_for f n))))
  | Tablerow n body =>
      seq (guard (loop_exceeded v lim f n) XLoop)
     (seq (m_write lim tr_open)
     (seq (guard (depth_exceeded lim f) XDepth)
     (seq (iter 1 (N.to_nat n) (fun k => seq (m_write lim (td_open k)) (seq (block v md lim body (f_scale v (f_ext f) n)) (m_write lim td_close))))
          (m_write lim tr_close))))
  | Include body =>
      seq (guard (f_no_include f) XDisabled)
     (seq (nest_guard md lim body)
     (seq (guard (depth_exceeded lim f) XDepth)
          (partial v md lim body (f_ext f))))
  | IncludeArr n body =>
      seq (guard (f_no_include f) XDisabled)
     (seq (nest_guard md lim body)
     (seq (guard (depth_exceeded lim f) XDepth)
     (seq (guard (loop_exceeded v lim (f_ext f) n) XLoop)
          (iter 1 (N.to_nat n) (fun _ => partial v md lim body (f_scale v (f_ext f) n))))))
  | Render body =>
      seq (nest_guard md lim body)
     (seq (guard (copy_exceeded lim f) XDepth)
          (in_ctx (partial v md lim body (f_copy f))))
  | RenderFor n body =>
      seq (nest_guard md lim body)
     (seq (guard (copy_exceeded lim f) XDepth)
     (seq (guard (loop_exceeded v lim (f_copy f) n) XLoop)
          (if v_item v
           then iter 1 (N.to_nat n) (fun _ => in_ctx (partial v md lim body (f_scale v (f_copy f) n)))
           else in_ctx (iter 1 (N.to_nat n) (fun _ => partial v md lim body (f_scale v (f_copy f) n))))))
  | Call body =>
      seq (guard (copy_exceeded lim f) XDepth)
          (in_ctx (block v md lim body (f_call f)))
  | Block body =>
      seq (guard (f_no_block f) XDisabled)
     (seq (guard (copy_exceeded lim f) XDepth)
          (in_blk (block v md lim body (f_blk f))))
  | BlockD body =>
      seq (guard (f_no_block f) XDisabled)
     (seq (guard (depth_exceeded lim f) XDepth)
          (block v md lim body (f_sup_set (f_ext f) SupNone)))
  | Super body =>
      match f_sup f with
      | SupNone => ret
      | SupHere =>
          in_sup lim f (seq (guard (depth_exceeded lim f) XDepth) (block v md lim body (f_sup_set (f_ext f) SupHere)))
      | SupBase b =>
          in_sup lim f (in_base v (seq (guard (depth_exceeded lim (f_base v b f)) XDepth) (block v md lim body (f_ext (f_base v b f)))))
      end
  | SuperU => ret
  end.
Proof. destruct nd; reflexivity. Qed.

Lemma exec_list_cons v md lim x r f : exec_list v md lim (x :: r) f = seq (exec v md lim x f) (exec_list v md lim r f).
Proof. reflexivity. Qed.

Lemma run_nodes_cons v md lim x r f :
  run_nodes v md lim (x :: r) f = seq (handle md (exec v md lim x f)) (run_nodes v md lim r f).
Proof. reflexivity. Qed.

(* ------------------------------------------------------------------ inversion of the combinators (successful runs) *)
Lemma seq_ok (a b : M) s s' : seq a b s = LOk s' -> exists s1, a s = LOk s1 /\ b s1 = LOk s'.
Proof. unfold seq. destruct (a s) as [s1|e s1|]; try discriminate. eauto. Qed.

Lemma guard_ok b e s s' : guard b e s = LOk s' -> b = false /\ s' = s.
Proof. unfold guard. destruct b; intro H; inversion H; auto. Qed.

Lemma nestd_guard_ok md d s s' : nestd_guard md d s = LOk s' -> d = false /\ s' = s.
Proof. unfold nestd_guard. destruct d; [destruct (tolerant md); discriminate|]. intro H; inversion H; auto. Qed.

Lemma nest_guard_ok md lim body s s' : nest_guard md lim body s = LOk s' -> nest_exceeded lim body = false /\ s' = s.
Proof. unfold nest_guard. apply nestd_guard_ok. Qed.

Lemma in_null_ok (m : M) s s' : in_null m s = LOk s' -> exists s1, m (set_buf s BNull) = LOk s1 /\ s' = set_buf s1 (s_buf s).
Proof. unfold in_null. destruct (m _) as [s1|e s1|]; intro H; inversion H. eauto. Qed.

Lemma in_childb_ok cb (m : M) k s s' :
  in_childb cb m k s = LOk s' ->
  exists s1, m (set_buf s cb) = LOk s1 /\ k (buf_text (s_buf s1)) (set_buf s1 (s_buf s)) = LOk s'.
Proof. unfold in_childb. destruct (m _) as [s1|e s1|]; intro H; try discriminate. eauto. Qed.

Lemma in_child_ok (m : M) k s s' :
  in_child m k s = LOk s' ->
  exists s1, m (set_buf s (child_of (s_buf s))) = LOk s1 /\ k (buf_text (s_buf s1)) (set_buf s1 (s_buf s)) = LOk s'.
Proof. unfold in_child. apply in_childb_ok. Qed.

Lemma in_ctx_ok (m : M) s s' :
  in_ctx m s = LOk s' -> exists s1, m (set_cx s (cx_copy (s_cx s))) = LOk s1 /\ s' = set_cx s1 (s_cx s).
Proof. unfold in_ctx. destruct (m _) as [s1|e s1|]; intro H; inversion H. eauto. Qed.

Lemma in_blk_ok (m : M) s s' :
  in_blk m s = LOk s' -> exists s1, m (set_cx s (cx_blk (s_cx s))) = LOk s1 /\ leave_blk s1 = Some s'.
Proof.
  unfold in_blk. destruct (m _) as [s1|e s1|]; try discriminate.
  destruct (leave_blk s1) eqn:El; intro H; inversion H. subst. eauto.
Qed.

Lemma leave_blk_some s1 s2 : leave_blk s1 = Some s2 -> exists c, cx_unblk (s_cx s1) = Some c /\ s2 = set_cx s1 c.
Proof. unfold leave_blk. destruct (cx_unblk (s_cx s1)) as [c|]; intro Hq; inversion Hq. eauto. Qed.

Lemma in_base_ok v (m : M) s s' :
  in_base v m s = LOk s' ->
  exists cb s1, cx_base v (s_cx s) = Some cb /\ m (set_cx s cb) = LOk s1 /\ s' = set_cx s1 (cx_back v (s_cx s) (s_cx s1)).
Proof.
  unfold in_base. destruct (cx_base v (s_cx s)) as [cb|]; try discriminate.
  destruct (m _) as [s1|e s1|] eqn:Em; intro H; inversion H. exists cb, s1. auto.
Qed.

Lemma iter_first (body : Z -> M) n k s s' :
  iter k (S n) body s = LOk s' -> exists s1, body k s = LOk s1.
Proof. simpl. intro H. apply seq_ok in H. destruct H as (s1 & H1 & _). eauto. Qed.

(* in STRICT mode the per-node handler is the identity *)
Lemma handle_strict (m : M) s : handle Strict m s = m s.
Proof. unfold handle. destruct (m s); reflexivity. Qed.

Lemma handle_out_strict (m : M) s : handle_out Strict m s = m s.
Proof. unfold handle_out. destruct (m s); reflexivity. Qed.

Lemma run_nodes_strict v lim l f s : run_nodes v Strict lim l f s = exec_list v Strict lim l f s.
Proof.
  revert s. induction l as [|x r IH]; intro s; [reflexivity|].
  rewrite run_nodes_cons, exec_list_cons. unfold seq. rewrite handle_strict.
  destruct (exec v Strict lim x f s); auto.
Qed.

(* the whole render as one computation from the initial state *)
Definition render v md lim (chain : list Z) (main : list node) : M :=
  match chain with
  | [] => seq (nest_guard md lim main) (partial v md lim main frame0)
  | d0 :: loaded =>
      seq (nestd_guard md (d0 >? l_nest lim))
     (seq (guard (depth_exceeded lim frame0) XDepth)
          (handle_out md (seq (nestd_guard md (chain_too_deep lim loaded)) (partial v md lim main (f_ext frame0)))))
  end.

Lemma run_prog_render v md lim chain main glob sizes :
  run_prog v md lim chain main glob sizes = render v md lim chain main (st0 glob sizes).
Proof. destruct chain; reflexivity. Qed.

(* ------------------------------------------------------------------ generic preservation, all modes *)
(* A frame invariant I (re-established by every construct for the frame it passes down), a state invariant P for
   the states a run continues from, and a condition E for the states carried by errors.  In WARN/LAX mode the
   render continues from error states, so E must give P back there; in STRICT mode E may be anything. *)
Section Preserve.
  Variables (v : variant) (md : mode) (lim : limits).
  Variable I : frame -> Prop.
  Variables P E : st -> Prop.

  (* post, H and keeps are used after the section too, as `H P E m`; I being a variable here, True's proof is Logic.I *)
  Definition post (r : lres st) : Prop :=
    match r with LOk s' => P s' | LErr _ s' => E s' | LFuel => True end.
  Definition H (m : M) : Prop := forall s, P s -> post (m s).

  Hypothesis I_ext : forall f, I f -> I (f_ext f).
  Hypothesis I_for : forall f n, I f -> (n =? 0)%N = false -> loop_exceeded v lim f n = false -> I (f_for f n).
  Hypothesis I_scale : forall f n, I f -> (n =? 0)%N = false -> loop_exceeded v lim f n = false -> I (f_scale v f n).
  Hypothesis I_copy : forall f, I f -> I (f_copy f).
  Hypothesis I_call : forall f, I f -> I (f_call f).
  Hypothesis I_blk : forall f, I f -> I (f_blk f).
  Hypothesis I_sup_set : forall f u, I f -> u = SupNone \/ u = SupHere -> I (f_sup_set f u).
  Hypothesis I_base : forall f b, I f -> f_sup f = SupBase b -> I (f_base v b f).
  Hypothesis I_freeze : forall f s, I f -> P s -> I (f_freeze f (s_buf s)).
  Hypothesis H_leaf : forall f, I f -> H (m_leaf (f_tp f)).
  Hypothesis H_write : forall t, H (m_write lim t).
  Hypothesis H_assign : forall x val, H (m_assign v lim x val).
  Hypothesis P_null : forall s, P s -> P (set_buf s BNull).
  Hypothesis P_child : forall s, P s -> P (set_buf s (child_of (s_buf s))).
  Hypothesis P_sup : forall f s, I f -> P s -> P (set_buf s (sup_buf f s)).
  Hypothesis P_restore : forall s s1, P s -> P s1 -> P (set_buf s1 (s_buf s)).
  Hypothesis E_restore : forall s s1, P s -> E s1 -> E (set_buf s1 (s_buf s)).
  Hypothesis P_ifch : forall s i, P s -> P (set_cx s (cx_ifch (s_cx s) i)).
  Hypothesis P_copy_in : forall s, P s -> P (set_cx s (cx_copy (s_cx s))).
  Hypothesis P_copy_out : forall s s1, P s -> P s1 -> P (set_cx s1 (s_cx s)).
  Hypothesis E_copy_out : forall s s1, P s -> E s1 -> E (set_cx s1 (s_cx s)).
  Hypothesis P_blk_in : forall s, P s -> P (set_cx s (cx_blk (s_cx s))).
  Hypothesis P_blk_out : forall s1 s2, P s1 -> leave_blk s1 = Some s2 -> P s2.
  Hypothesis E_blk_out : forall s1 s2, E s1 -> leave_blk s1 = Some s2 -> E s2.
  Hypothesis P_base_in : forall s cb, P s -> cx_base v (s_cx s) = Some cb -> P (set_cx s cb).
  Hypothesis P_base_out : forall s cb s1, P s -> cx_base v (s_cx s) = Some cb -> P s1 -> P (set_cx s1 (cx_back v (s_cx s) (s_cx s1))).
  Hypothesis E_base_out : forall s cb s1, P s -> cx_base v (s_cx s) = Some cb -> E s1 -> E (set_cx s1 (cx_back v (s_cx s) (s_cx s1))).
  Hypothesis P_E : forall s, P s -> E s.
  Hypothesis E_P : tolerant md = true -> forall s, E s -> P s.

  Lemma H_ret : H ret.
  Proof. intros s HP. exact HP. Qed.

  Lemma H_seq a b : H a -> H b -> H (seq a b).
  Proof.
    intros Ha Hb s HP. unfold seq. specialize (Ha s HP).
    destruct (a s) as [s1|e s1|]; [apply Hb; exact Ha|exact Ha|exact Logic.I].
  Qed.

  Lemma H_guard g e : H (guard g e).
  Proof. intros s HP. unfold guard. destruct g; [exact (P_E s HP)|exact HP]. Qed.

  Lemma H_guarded g e m : H m -> H (seq (guard g e) m).
  Proof. apply H_seq. apply H_guard. Qed.

  Lemma H_nestd_guard d : H (nestd_guard md d).
  Proof.
    intros s HP. unfold nestd_guard. destruct d; [|exact HP].
    destruct (tolerant md); [exact Logic.I|exact (P_E s HP)].
  Qed.

  Lemma H_nest_guard body : H (nest_guard md lim body).
  Proof. apply H_nestd_guard. Qed.

  (* what follows a loop-limit check only runs where the check has passed *)
  Lemma H_loop_guard f n m : (loop_exceeded v lim f n = false -> H m) -> H (seq (guard (loop_exceeded v lim f n) XLoop) m).
  Proof.
    intro Hm. destruct (loop_exceeded v lim f n).
    - intros s HP. exact (P_E s HP).
    - apply H_seq; [apply H_guard|apply Hm; reflexivity].
  Qed.

  Lemma H_iter body : (forall k, H (body k)) -> forall n k, H (iter k n body).
  Proof. intros Hb. induction n as [|n IH]; intro k; [apply H_ret|]. apply H_seq; [apply Hb|apply IH]. Qed.

  (* the block of a repeating construct only runs if there is an item *)
  Lemma H_repeat n body : ((n =? 0)%N = false -> forall k, H (body k)) -> H (iter 1 (N.to_nat n) body).
  Proof.
    intro Hb. destruct (n =? 0)%N eqn:En; [|apply H_iter; apply Hb; reflexivity].
    apply N.eqb_eq in En. subst n. apply H_ret.
  Qed.

  Lemma H_in_null m : H m -> H (in_null m).
  Proof.
    intros Hm s HP. unfold in_null. specialize (Hm (set_buf s BNull) (P_null s HP)).
    destruct (m _) as [s1|e s1|]; [exact (P_restore s s1 HP Hm)|exact (E_restore s s1 HP Hm)|exact Logic.I].
  Qed.

  (* at one state: the new buffer may depend on it *)
  Lemma H_in_childb_at cb m k s : P s -> P (set_buf s cb) -> H m -> (forall val, H (k val)) -> post (in_childb cb m k s).
  Proof.
    intros HP HPc Hm Hk. unfold in_childb. specialize (Hm (set_buf s cb) HPc).
    destruct (m _) as [s1|e s1|]; [|exact (E_restore s s1 HP Hm)|exact Logic.I].
    apply Hk. exact (P_restore s s1 HP Hm).
  Qed.

  Lemma H_in_child m k : H m -> (forall val, H (k val)) -> H (in_child m k).
  Proof. intros Hm Hk s HP. unfold in_child. apply H_in_childb_at; [exact HP|exact (P_child s HP)|exact Hm|exact Hk]. Qed.

  Lemma H_in_sup f m : I f -> H m -> H (in_sup lim f m).
  Proof. intros HI Hm s HP. unfold in_sup. apply H_in_childb_at; [exact HP|exact (P_sup f s HI HP)|exact Hm|exact H_write]. Qed.

  Lemma H_in_ctx m : H m -> H (in_ctx m).
  Proof.
    intros Hm s HP. unfold in_ctx. specialize (Hm _ (P_copy_in s HP)).
    destruct (m _) as [s1|e s1|]; [exact (P_copy_out s s1 HP Hm)|exact (E_copy_out s s1 HP Hm)|exact Logic.I].
  Qed.

  Lemma H_in_blk m : H m -> H (in_blk m).
  Proof.
    intros Hm s HP. unfold in_blk. specialize (Hm _ (P_blk_in s HP)).
    destruct (m _) as [s1|e s1|]; [| |exact Logic.I].
    - destruct (leave_blk s1) as [s2|] eqn:El; [exact (P_blk_out s1 s2 Hm El)|exact Logic.I].
    - destruct (leave_blk s1) as [s2|] eqn:El; [exact (E_blk_out s1 s2 Hm El)|exact Hm].
  Qed.

  Lemma H_in_base m : H m -> H (in_base v m).
  Proof.
    intros Hm s HP. unfold in_base. destruct (cx_base v (s_cx s)) as [cb|] eqn:Eb; [|exact Logic.I].
    specialize (Hm _ (P_base_in s cb HP Eb)).
    destruct (m _) as [s1|e s1|];
      [exact (P_base_out s cb s1 HP Eb Hm) | exact (E_base_out s cb s1 HP Eb Hm) | exact Logic.I].
  Qed.

  Lemma H_handle m : H m -> H (handle md m).
  Proof.
    intros Hm s HP. unfold handle. specialize (Hm s HP). destruct (m s) as [s1|e s1|]; [exact Hm| |exact Logic.I].
    destruct (tolerant md); [exact (E_P eq_refl s1 Hm)|exact Hm].
  Qed.

  Lemma H_handle_out m : H m -> H (handle_out md m).
  Proof.
    intros Hm s HP. unfold handle_out. specialize (Hm s HP). destruct (m s) as [s1|e s1|]; [exact Hm| |exact Logic.I].
    destruct (tolerant md); [exact Logic.I|exact Hm].
  Qed.

  Lemma H_fun (F : st -> M) : (forall s0, P s0 -> H (F s0)) -> H (fun s => F s s).
  Proof. intros HF s HP. apply (HF s HP s HP). Qed.

  Lemma H_ifchanged val : H (m_ifchanged lim val).
  Proof.
    intros s HP. unfold m_ifchanged. destruct (str_eqb val (s_ifch s)); [exact HP|].
    apply H_write. apply P_ifch; exact HP.
  Qed.

  Definition keeps (m : frame -> M) : Prop := forall f, I f -> H (m f).

  Lemma keeps_block body : keeps (exec_list v md lim body) -> keeps (block v md lim body).
  Proof.
    intros Hl f HI. unfold block. destruct (blank_list body); [|apply Hl; exact HI].
    apply (H_fun (fun s0 => in_null (exec_list v md lim body (f_freeze f (s_buf s0))))).
    intros s0 HP0. apply H_in_null. apply Hl. apply I_freeze; assumption.
  Qed.

  (* capture and ifchanged: the block runs in a buffer of its own, what it wrote is handed to k *)
  Lemma keeps_buffered body k :
    keeps (exec_list v md lim body) -> (forall val, H (k val)) ->
    keeps (fun f s => in_child (block v md lim body (f_freeze f (s_buf s))) k s).
  Proof.
    intros Hl Hk f HI. apply (H_fun (fun s0 => in_child (block v md lim body (f_freeze f (s_buf s0))) k)).
    intros s0 HP0. apply H_in_child; [|exact Hk]. apply (keeps_block body Hl). apply I_freeze; assumption.
  Qed.

  Lemma keeps_partial body : keeps (run_nodes v md lim body) -> keeps (partial v md lim body).
  Proof. intros Hl f HI. unfold partial. apply H_guarded. apply Hl. apply I_ext; exact HI. Qed.

  (* the list part of the induction carries both readings of a list: as a block and as a template *)
  Definition keepsQ (l : list node) : Prop := keeps (exec_list v md lim l) /\ keeps (run_nodes v md lim l).

  Theorem exec_keeps : forall nd, keeps (exec v md lim nd).
  Proof.
    apply (node_ind' (fun nd => keeps (exec v md lim nd)) keepsQ).
    - (* Text *) intros t f HI. rewrite exec_eq. apply H_seq; [apply H_leaf; exact HI|apply H_write].
    - (* Echo *) intros x f HI. rewrite exec_eq. apply (H_fun (fun s0 => m_write lim (lookup x s0))). intros s0 _. apply H_write.
    - (* Assign *) intros x t f HI. rewrite exec_eq. apply H_assign.
    - (* Capture *) intros x b [IH _] f HI. rewrite exec_eq. apply (keeps_buffered b _ IH (H_assign x) f HI).
    - (* IfChanged *) intros b [IH _] f HI. rewrite exec_eq. apply (keeps_buffered b _ IH H_ifchanged f HI).
    - (* For *) intros n b [IH _] f HI. rewrite exec_eq. destruct (n =? 0)%N eqn:En; [apply H_ret|].
      apply H_loop_guard. intro G. apply H_guarded. apply H_iter. intro k.
      apply (keeps_block b IH). apply I_for; assumption.
    - (* Tablerow *) intros n b [IH _] f HI. rewrite exec_eq.
      apply H_loop_guard. intro G. apply H_seq; [apply H_write|]. apply H_guarded. apply H_seq; [|apply H_write].
      apply H_repeat. intros En k. apply H_seq; [apply H_write|]. apply H_seq; [|apply H_write].
      apply (keeps_block b IH). apply I_scale; [apply I_ext; exact HI|exact En|exact G].
    - (* Include *) intros b [_ IH] f HI. rewrite exec_eq.
      apply H_guarded. apply H_seq; [apply H_nest_guard|]. apply H_guarded.
      apply (keeps_partial b IH). apply I_ext; exact HI.
    - (* IncludeArr *) intros n b [_ IH] f HI. rewrite exec_eq.
      apply H_guarded. apply H_seq; [apply H_nest_guard|]. apply H_guarded.
      apply H_loop_guard. intro G. apply H_repeat. intros En k.
      apply (keeps_partial b IH). apply I_scale; [apply I_ext; exact HI|exact En|exact G].
    - (* Render *) intros b [_ IH] f HI. rewrite exec_eq.
      apply H_seq; [apply H_nest_guard|]. apply H_guarded.
      apply H_in_ctx. apply (keeps_partial b IH). apply I_copy; exact HI.
    - (* RenderFor *) intros n b [_ IH] f HI. rewrite exec_eq.
      apply H_seq; [apply H_nest_guard|]. apply H_guarded. apply H_loop_guard. intro G.
      assert (Hp : (n =? 0)%N = false -> H (partial v md lim b (f_scale v (f_copy f) n))).
      { intro En. apply (keeps_partial b IH). apply I_scale; [apply I_copy; exact HI|exact En|exact G]. }
      destruct (v_item v).
      + apply H_repeat. intros En k. apply H_in_ctx. exact (Hp En).
      + apply H_in_ctx. apply H_repeat. intros En k. exact (Hp En).
    - (* Call *) intros b [IH _] f HI. rewrite exec_eq.
      apply H_guarded. apply H_in_ctx. apply (keeps_block b IH). apply I_call; exact HI.
    - (* Block *) intros b [IH _] f HI. rewrite exec_eq.
      apply H_guarded. apply H_guarded. apply H_in_blk. apply (keeps_block b IH). apply I_blk; exact HI.
    - (* BlockD *) intros b [IH _] f HI. rewrite exec_eq.
      apply H_guarded. apply H_guarded.
      apply (keeps_block b IH). apply I_sup_set; [apply I_ext; exact HI|left; reflexivity].
    - (* Super *) intros b [IH _] f HI. rewrite exec_eq. destruct (f_sup f) as [| |bf] eqn:Es.
      + apply H_ret.
      + apply H_in_sup; [exact HI|]. apply H_guarded.
        apply (keeps_block b IH). apply I_sup_set; [apply I_ext; exact HI|right; reflexivity].
      + apply H_in_sup; [exact HI|]. apply H_in_base. apply H_guarded.
        apply (keeps_block b IH). apply I_ext. apply I_base; assumption.
    - (* SuperU *) intros f HI. rewrite exec_eq. apply H_ret.
    - (* nil *) split; intros f HI; apply H_ret.
    - (* cons *) intros x r IHx [IHr1 IHr2]. split; intros f HI.
      + rewrite exec_list_cons. apply H_seq; [apply IHx|apply IHr1]; exact HI.
      + rewrite run_nodes_cons. apply H_seq; [apply H_handle; apply IHx|apply IHr2]; exact HI.
  Qed.

  Corollary run_nodes_keeps : forall l, keeps (run_nodes v md lim l).
  Proof.
    induction l as [|x r IH]; intros f HI; [apply H_ret|].
    rewrite run_nodes_cons. apply H_seq; [apply H_handle; apply exec_keeps|apply IH]; exact HI.
  Qed.

  Corollary partial_keeps : forall l, keeps (partial v md lim l).
  Proof. intro l. apply keeps_partial, run_nodes_keeps. Qed.

  Corollary render_keeps chain main : I frame0 -> H (render v md lim chain main).
  Proof.
    intro HI. destruct chain as [|d0 loaded]; unfold render.
    - apply H_seq; [apply H_nest_guard|]. apply partial_keeps. exact HI.
    - apply H_seq; [apply H_nestd_guard|]. apply H_guarded. apply H_handle_out.
      apply H_seq; [apply H_nestd_guard|]. apply partial_keeps. apply I_ext; exact HI.
  Qed.

  (* the whole render: whatever it returns - a result, or an error with the state it was raised in *)
  Corollary run_post chain main glob sizes : I frame0 -> P (st0 glob sizes) -> post (run_prog v md lim chain main glob sizes).
  Proof. intros HI HP. rewrite run_prog_render. apply (render_keeps chain main HI). exact HP. Qed.
End Preserve.

(* the repairs, whichever way render-for makes its contexts *)
Definition is_repaired (v : variant) : Prop :=
  v_carry v = true /\ v_zero v = true /\ v_rollback v = true /\ v_super_loop v = true /\ v_super_ns v = true.
Lemma repaired_is_repaired : is_repaired repaired.
Proof. repeat split; reflexivity. Qed.

Lemma loop_limit_repaired v lim : is_repaired v -> loop_limit v lim = l_loop lim.
Proof. intros (_ & Hz & _). unfold loop_limit. rewrite Hz. destruct (l_loop lim) as [[|p]|]; reflexivity. Qed.

Lemma ns_limit_repaired v lim : is_repaired v -> ns_limit v lim = l_ns lim.
Proof. intros (_ & Hz & _). unfold ns_limit. rewrite Hz. destruct (l_ns lim) as [[|p|p]|]; reflexivity. Qed.

(* ------------------------------------------------------------------ helpers *)
Lemma fold_mul_scale l a b : fold_left N.mul l (a * b)%N = (fold_left N.mul l a * b)%N.
Proof.
  revert a. induction l as [|x l IH]; intro a; simpl; [reflexivity|].
  replace (a * b * x)%N with (a * x * b)%N by lia. apply IH.
Qed.

Lemma utf8_len_pos c : 1 <= utf8_len c <= 4.
Proof. unfold utf8_len. destruct (c <? 128)%N; [lia|]. destruct (c <? 2048)%N; [lia|]. destruct (c <? 65536)%N; lia. Qed.

Lemma utf8_bytes_nonneg s : 0 <= utf8_bytes s.
Proof. induction s as [|c s IH]; simpl; [lia|]. pose proof (utf8_len_pos c). lia. Qed.

Lemma utf8_bytes_app a b : utf8_bytes (a ++ b) = utf8_bytes a + utf8_bytes b.
Proof. induction a as [|c a IH]; simpl; lia. Qed.

Lemma utf8_bytes_rev a : utf8_bytes (rev a) = utf8_bytes a.
Proof. induction a as [|c a IH]; simpl; [reflexivity|]. rewrite utf8_bytes_app. simpl. lia. Qed.

Lemma utf8_bytes_rev_append a b : utf8_bytes (rev_append a b) = utf8_bytes a + utf8_bytes b.
Proof. rewrite rev_append_rev, utf8_bytes_app, utf8_bytes_rev. reflexivity. Qed.

Lemma m_write_only_buf lim t s :
  match m_write lim t s with
  | LOk s' | LErr _ s' =>
      s_leaf s' = s_leaf s /\ s_nslog s' = s_nslog s /\ s_cx s' = s_cx s /\ s_sizes s' = s_sizes s /\ s_glob s' = s_glob s
  | LFuel => True
  end.
Proof. unfold m_write. destruct (buf_write _ _ _) as [[|] b]; simpl; auto 6. Qed.

Lemma m_assign_keeps_buf v lim x val s :
  match m_assign v lim x val s with
  | LOk s' | LErr _ s' => s_buf s' = s_buf s /\ s_leaf s' = s_leaf s
  | LFuel => True
  end.
Proof.
  unfold m_assign. destruct (s_sizes s); [exact Logic.I|].
  destruct (ns_limit v lim); [destruct (_ >? _); [destruct (v_rollback v)|]|]; simpl; auto.
Qed.

(* ------------------------------------------------------------------ C06: the loop limit bounds the true product, in every mode *)
Section LoopBound.
  Variables (v : variant) (md : mode) (lim : limits) (L : N).
  Hypothesis Hv : is_repaired v.
  Hypothesis HL : l_loop lim = Some L.

  (* block.super from a block-scoped copy divides the copy's iterations by the base context's: exact *)
  Definition sup_ok (f : frame) : Prop :=
    match f_sup f with SupBase b => (1 <= bkb b)%N /\ exists k, bk f = (bkb b * k)%N | _ => True end.
  Definition linv (f : frame) : Prop := bk f = f_tp f /\ (1 <= f_tp f <= L)%N /\ sup_ok f.
  Definition leafP (s : st) : Prop := Forall (fun p => (p <= L)%N) (s_leaf s).

  Lemma not_exceeded f n : loop_exceeded v lim f n = false -> (bk f * n <= L)%N.
  Proof.
    unfold loop_exceeded. rewrite (loop_limit_repaired v lim Hv), HL. intro H.
    replace (n * f_carry f)%N with (f_carry f * n)%N in H by lia. rewrite fold_mul_scale in H. unfold bk. lia.
  Qed.

  Lemma bk_for f n : bk (f_for f n) = (bk f * n)%N.
  Proof. unfold bk, f_for; cbn [f_loops f_carry fold_left]. apply fold_mul_scale. Qed.
  Lemma bk_scale f n : bk (f_scale v f n) = (bk f * n)%N.
  Proof. unfold bk, f_scale; cbn [f_loops f_carry]. destruct Hv as (Hc & _). rewrite Hc. apply fold_mul_scale. Qed.

  Lemma linv_mul f f' n :
    linv f -> (n =? 0)%N = false -> (bk f * n <= L)%N ->
    bk f' = (bk f * n)%N -> f_tp f' = (f_tp f * n)%N -> f_sup f' = f_sup f -> linv f'.
  Proof.
    intros (Hb & Ht & Hs) Hn He Hbk Htp Hsup. unfold linv, sup_ok in *. rewrite Hbk, Htp, Hsup, Hb in *.
    split; [reflexivity|]. split; [nia|].
    destruct (f_sup f) as [| |b]; auto. destruct Hs as (H1 & k & Hk). split; [exact H1|]. exists (k * n)%N. rewrite Hk. lia.
  Qed.

  Lemma linv_for f n : linv f -> (n =? 0)%N = false -> loop_exceeded v lim f n = false -> linv (f_for f n).
  Proof. intros HI Hn He. apply not_exceeded in He. apply (linv_mul f _ n HI Hn He (bk_for f n)); reflexivity. Qed.

  Lemma linv_scale f n : linv f -> (n =? 0)%N = false -> loop_exceeded v lim f n = false -> linv (f_scale v f n).
  Proof. intros HI Hn He. apply not_exceeded in He. apply (linv_mul f _ n HI Hn He (bk_scale f n)); reflexivity. Qed.

  Lemma linv_ext f : linv f -> linv (f_ext f).
  Proof. intros (Hb & Ht & Hs). split; [exact Hb|split; [exact Ht|exact Hs]]. Qed.
  Lemma linv_copy f : linv f -> linv (f_copy f).
  Proof. intros (Hb & Ht & _). split; [exact Hb|split; [exact Ht|exact Logic.I]]. Qed.
  Lemma linv_call f : linv f -> linv (f_call f).
  Proof. intros (Hb & Ht & _). split; [exact Hb|split; [exact Ht|exact Logic.I]]. Qed.
  Lemma linv_blk f : linv f -> linv (f_blk f).
  Proof.
    intros (Hb & Ht & _). unfold linv, sup_ok, f_blk. cbn [f_sup f_tp]. split; [exact Hb|]. split; [exact Ht|].
    unfold bkb, bk in *. cbn [b_loops b_carry f_loops f_carry fold_left]. rewrite Hb. split; [lia|]. exists 1%N. lia.
  Qed.
  Lemma linv_sup_set f u : linv f -> u = SupNone \/ u = SupHere -> linv (f_sup_set f u).
  Proof. intros (Hb & Ht & _) [->| ->]; (split; [exact Hb|split; [exact Ht|exact Logic.I]]). Qed.
  Lemma linv_freeze f b : linv f -> linv (f_freeze f b).
  Proof. intros (Hb & Ht & Hs). split; [exact Hb|split; [exact Ht|exact Hs]]. Qed.

  (* the parent block runs in the base context under exactly the iterations of the overriding block *)
  Lemma linv_base f b : linv f -> f_sup f = SupBase b -> linv (f_base v b f).
  Proof.
    intros (Hb & Ht & Hs) Es. unfold sup_ok in Hs. rewrite Es in Hs. destruct Hs as (H1 & k & Hk).
    unfold linv, sup_ok, f_base, bk. cbn [f_loops f_carry f_tp f_sup]. split; [|split; [exact Ht|exact Logic.I]].
    rewrite fold_mul_scale. fold (bkb b). unfold enclosing. destruct Hv as (_ & _ & _ & Hsl & _). rewrite Hsl.
    rewrite <- Hb, Hk.
    assert (Hk1 : (1 <= k)%N) by (destruct k; [rewrite N.mul_0_r in Hk; lia|lia]).
    rewrite (N.max_r 1 (bkb b)) by lia. rewrite (N.max_r 1 (bkb b * k)) by nia.
    rewrite (N.mul_comm (bkb b) k) at 1. rewrite N.div_mul by lia. rewrite N.max_r by lia. reflexivity.
  Qed.

  Lemma linv_frame0 : (1 <= L)%N -> linv frame0.
  Proof. intro H1. split; [reflexivity|]. split; [simpl; lia|exact Logic.I]. Qed.

  (* whatever the render returns - its result, or the error that escaped with the state at that point - every leaf
     execution logged so far had a true product <= L; errors dropped on the way (WARN/LAX) included *)
  Theorem run_leaf_bound chain main glob sizes :
    (1 <= L)%N ->
    match run_prog v md lim chain main glob sizes with
    | LOk s | LErr _ s => leafP s
    | LFuel => True
    end.
  Proof.
    intro H1.
    apply (run_post v md lim linv leafP leafP);
      auto using linv_ext, linv_for, linv_scale, linv_copy, linv_call, linv_blk, linv_sup_set, linv_base, linv_freeze.
    - (* H_leaf *) intros f (_ & Ht & _) s HP. simpl. unfold leafP; simpl. constructor; [lia|auto].
    - (* H_write *) intros t s HP. pose proof (m_write_only_buf lim t s) as Fr. unfold leafP in *.
      destruct (m_write lim t s) as [s'|e s'|]; simpl; auto; destruct Fr as (-> & _); exact HP.
    - (* H_assign *) intros x val s HP. pose proof (m_assign_keeps_buf v lim x val s) as Fr. unfold leafP in *.
      destruct (m_assign v lim x val s) as [s'|e s'|]; simpl; auto; destruct Fr as (_ & ->); exact HP.
    - (* P_blk_out *) intros s1 s2 HP Hq. apply leave_blk_some in Hq as (c & _ & ->). exact HP.
    - (* E_blk_out *) intros s1 s2 HP Hq. apply leave_blk_some in Hq as (c & _ & ->). exact HP.
    - exact (linv_frame0 H1).
    - constructor.
  Qed.
End LoopBound.

(* ------------------------------------------------------------------ C07: namespace sizes, in every mode *)
Section NsBound.
  Variables (v : variant) (md : mode) (lim : limits).
  Hypothesis Hv : is_repaired v.

  (* in every context, suspended ones included, the carry the engine holds IS the measured size of everything else
     that is alive *)
  Fixpoint chain_ok (l : list oent) : Prop :=
    match l with [] => True | o :: r => o_nsc o = outer_total r + o_anc o /\ chain_ok r end.
  Definition nsinv (c : cx) : Prop := x_nsc c = outer_total (x_outer c) + x_anc c /\ chain_ok (x_outer c).
  Definition ns_ok (p : Z * Z) : Prop := fst p = snd p /\ forall M, l_ns lim = Some M -> fst p <= M.
  Definition nsP (s : st) : Prop := Forall ns_ok (s_nslog s) /\ nsinv (s_cx s).

  Lemma nsinv_live c : nsinv c -> cx_live c = cx_size c.
  Proof. intros [Hn _]. unfold cx_live, cx_size. lia. Qed.

  (* leaving a block-scoped copy, and block.super handing the base context back to it, keep the equation in every
     suspended context *)
  Lemma nsP_leave s1 s2 : nsP s1 -> leave_blk s1 = Some s2 -> nsP s2.
  Proof.
    intros [HP [Ha Hb]] Hq. apply leave_blk_some in Hq as (c & Hc & ->). unfold cx_unblk in Hc.
    destruct (x_outer (s_cx s1)) as [|o rest]; inversion Hc; subst c.
    destruct Hb as [Hb1 Hb2]. split; [exact HP|]. split; [exact Hb1|exact Hb2].
  Qed.

  Lemma nsP_base_in s cb : nsP s -> cx_base v (s_cx s) = Some cb -> nsP (set_cx s cb).
  Proof.
    destruct Hv as (_ & _ & _ & _ & Hsn). intros [HP [Ha Hb]] Hq. unfold cx_base in Hq.
    destruct (x_outer (s_cx s)) as [|o rest]; inversion Hq; subst cb.
    destruct Hb as [Hb1 Hb2]. split; [exact HP|]. rewrite Hsn. split; simpl; [lia|exact Hb2].
  Qed.

  Lemma nsP_base_out s cb s1 :
    nsP s -> cx_base v (s_cx s) = Some cb -> nsP s1 -> nsP (set_cx s1 (cx_back v (s_cx s) (s_cx s1))).
  Proof.
    destruct Hv as (_ & _ & _ & _ & Hsn). intros [HP [Ha Hb]] Hq [HP1 _]. split; [exact HP1|].
    unfold cx_base in Hq. unfold cx_back. destruct (x_outer (s_cx s)) as [|o rest]; [discriminate|].
    destruct Hb as [Hb1 Hb2]. rewrite Hsn. split; simpl; [lia|]. split; [exact Hb1|exact Hb2].
  Qed.

  (* an accepted assignment logs a pair that agrees and is within the limit; a refused one is rolled back *)
  Lemma nsP_assign x val : H nsP nsP (m_assign v lim x val).
  Proof.
    destruct Hv as (_ & _ & Hr & _). intros s [HP HI]. unfold m_assign. destruct (s_sizes s) as [|z rest]; [exact Logic.I|].
    rewrite (ns_limit_repaired v lim Hv), Hr.
    set (c' := cx_locals (s_cx s) (lset x (val, z) (x_locals (s_cx s)))).
    assert (HI' : nsinv c') by exact HI.
    pose proof (nsinv_live c' HI') as Hlive.
    destruct (l_ns lim) as [M|] eqn:EM.
    - destruct (_ >? _) eqn:E0; [exact (conj HP HI)|]. split; [|exact HI']. constructor; [|exact HP].
      split; [exact Hlive|]. cbn [fst]. intros M' HM'. rewrite EM in HM'. injection HM' as <-. lia.
    - split; [|exact HI']. constructor; [|exact HP]. split; [exact Hlive|]. intros M' HM'. rewrite EM in HM'. discriminate.
  Qed.

  Theorem run_ns_bound chain main glob sizes :
    match run_prog v md lim chain main glob sizes with
    | LOk s | LErr _ s => nsP s
    | LFuel => True
    end.
  Proof.
    apply (run_post v md lim (fun _ => True) nsP nsP); auto using nsP_assign, nsP_base_in.
    - (* H_leaf *) intros f _ s HP. exact HP.
    - (* H_write *) intros t s HP. pose proof (m_write_only_buf lim t s) as Fr.
      destruct (m_write lim t s) as [s'|e s'|]; [| |exact Logic.I];
        destruct Fr as (_ & Hl & Hc & _); unfold post, nsP; rewrite Hl, Hc; exact HP.
    - (* P_copy_in: isolated copy *) intros s [HP [Ha Hb]]. split; [exact HP|]. unfold nsinv, cx_copy, cx_size, cx_live; simpl. split; [lia|exact Logic.I].
    - (* P_copy_out *) intros s s1 [HP HI] [HP1 HI1]. split; assumption.
    - (* E_copy_out *) intros s s1 [HP HI] [HP1 HI1]. split; assumption.
    - (* P_blk_in: block-scoped copy *) intros s [HP [Ha Hb]]. split; [exact HP|]. unfold nsinv, cx_blk, cx_size; simpl. split; [lia|]. split; [exact Ha|exact Hb].
    - (* P_blk_out *) exact nsP_leave.
    - (* E_blk_out *) exact nsP_leave.
    - (* P_base_out *) exact nsP_base_out.
    - (* E_base_out *) exact nsP_base_out.
    - split; [constructor|]. split; simpl; [reflexivity|exact Logic.I].
  Qed.
End NsBound.

(* ------------------------------------------------------------------ C07: output bytes, in every mode *)
Section OutBound.
  Variables (v : variant) (md : mode) (lim : limits).

  (* every limited buffer, at every moment: the text holds at most `size` bytes and at most its own limit
     (output_stream_limit - carried size; nothing at all if that is negative).  Refused writes (dropped in
     WARN/LAX mode) grow the size, never the text: the limit is checked BEFORE the text is written. *)
  Definition bufinv (b : buf) : Prop :=
    match b with
    | BNull => True
    | BLim base size rt =>
        utf8_bytes rt <= size /\ 0 <= base /\ forall L, l_out lim = Some L -> utf8_bytes rt <= Z.max 0 (L - base)
    end.
  Definition bufP (s : st) : Prop := bufinv (s_buf s).
  (* the size a block's buffer had when it was last seen *)
  Definition bsz_ok (f : frame) : Prop := match f_bsz f with Some z => 0 <= z | None => True end.

  Lemma bufinv_size b : bufinv b -> 0 <= cur_size b.
  Proof. destruct b as [|base size rt]; simpl; [lia|]. intros (Hs & _). pose proof (utf8_bytes_nonneg rt). lia. Qed.

  Lemma bufinv_fresh base : 0 <= base -> bufinv (BLim base 0 []).
  Proof. intro Hb. simpl. repeat split; try lia. Qed.

  Lemma buf_write_inv b t : bufinv b -> bufinv (snd (buf_write (l_out lim) b t)).
  Proof.
    intros Hb. unfold buf_write. destruct t as [|c t]; [exact Hb|].
    destruct b as [|base size rt]; [exact Logic.I|].
    destruct Hb as (Hs & Hbase & Hl). pose proof (utf8_bytes_nonneg (c :: t)) as Hn.
    destruct (l_out lim) as [L|] eqn:EL.
    - destruct (_ >? _) eqn:E0; cbn [snd bufinv].
      + repeat split; try lia. intros L' HL'. rewrite EL in HL'. inversion HL'; subst. apply Hl. reflexivity.
      + rewrite utf8_bytes_rev_append. repeat split; try lia. intros L' HL'. rewrite EL in HL'. inversion HL'; subst. lia.
    - cbn [snd bufinv]. rewrite utf8_bytes_rev_append. repeat split; try lia. intros L' HL'. rewrite EL in HL'. discriminate.
  Qed.

  Theorem run_out_inv chain main glob sizes :
    match run_prog v md lim chain main glob sizes with
    | LOk s | LErr _ s => bufP s
    | LFuel => True
    end.
  Proof.
    apply (run_post v md lim bsz_ok bufP bufP); auto.
    1-5: (* I_copy I_call I_blk I_sup_set I_base *) (intros; exact Logic.I).
    - (* I_freeze *) intros f s HI HP. unfold bsz_ok, f_freeze in *. cbn [f_bsz]. destruct (f_bsz f); [exact HI|]. apply bufinv_size. exact HP.
    - (* H_leaf *) intros f _ s HP. exact HP.
    - (* H_write *) intros t s HP. unfold m_write. pose proof (buf_write_inv (s_buf s) t HP) as Hw.
      destruct (buf_write (l_out lim) (s_buf s) t) as [[|] b]; simpl in *; exact Hw.
    - (* H_assign *) intros x val s HP. pose proof (m_assign_keeps_buf v lim x val s) as Fr. unfold bufP in *.
      destruct (m_assign v lim x val s) as [s'|e s'|]; simpl; auto; destruct Fr as (-> & _); exact HP.
    - (* P_null *) intros s HP. exact Logic.I.
    - (* P_child *) intros s HP. unfold bufP; simpl. apply bufinv_fresh. apply bufinv_size. exact HP.
    - (* P_sup *) intros f s HI HP. unfold bufP, sup_buf; simpl. apply bufinv_fresh. unfold bsz_ok in HI. destruct (f_bsz f); [exact HI|]. apply bufinv_size. exact HP.
    - (* P_blk_out *) intros s1 s2 HP Hq. apply leave_blk_some in Hq as (c & _ & ->). exact HP.
    - (* E_blk_out *) intros s1 s2 HP Hq. apply leave_blk_some in Hq as (c & _ & ->). exact HP.
    - exact Logic.I.
    - unfold bufP; simpl. repeat split; try lia.
  Qed.
End OutBound.

Corollary run_out_inv_ok v md lim chain main glob sizes s : run_prog v md lim chain main glob sizes = LOk s -> bufP lim s.
Proof. intros Hr. pose proof (run_out_inv v md lim chain main glob sizes) as R. rewrite Hr in R. exact R. Qed.

(* in STRICT mode a completed render moreover has size = bytes written <= own limit in every buffer *)
Section OutStrict.
  Variables (v : variant) (lim : limits).
  Hypothesis Hpos : forall L, l_out lim = Some L -> 0 <= L.

  Definition bufinv_strict (b : buf) : Prop :=
    match b with
    | BNull => True
    | BLim base size rt => utf8_bytes rt = size /\ 0 <= base /\ forall L, l_out lim = Some L -> size <= L - base
    end.
  Definition bufP_strict (s : st) : Prop := bufinv_strict (s_buf s).
  Definition bsz_strict (f : frame) : Prop :=
    match f_bsz f with Some z => 0 <= z /\ forall L, l_out lim = Some L -> z <= L | None => True end.

  Lemma bufinv_strict_size b : bufinv_strict b -> 0 <= cur_size b /\ forall L, l_out lim = Some L -> cur_size b <= L.
  Proof.
    destruct b as [|base size rt]; simpl.
    - intros _. split; [lia|]. intros L HL. apply (Hpos L HL).
    - intros (Hs & Hb & Hl). pose proof (utf8_bytes_nonneg rt). split; [lia|]. intros L HL. specialize (Hl L HL). lia.
  Qed.

  Lemma bufinv_strict_fresh base : 0 <= base -> (forall L, l_out lim = Some L -> base <= L) -> bufinv_strict (BLim base 0 []).
  Proof. intros Hb Hl. simpl. repeat split; try lia. intros L HL. specialize (Hl L HL). lia. Qed.

  Theorem run_out_inv_strict chain main glob sizes s : run_prog v Strict lim chain main glob sizes = LOk s -> bufP_strict s.
  Proof.
    intro Hr.
    enough (R : post bufP_strict (fun _ => True) (run_prog v Strict lim chain main glob sizes)) by (rewrite Hr in R; exact R).
    apply (run_post v Strict lim bsz_strict bufP_strict (fun _ => True)); auto; try discriminate.
    1-5: (intros; exact Logic.I). (* the open hypotheses are those of run_out_inv, less E_blk_out *)
    - intros f s0 HI HP. unfold bsz_strict, f_freeze in *. cbn [f_bsz]. destruct (f_bsz f); [exact HI|]. apply bufinv_strict_size. exact HP.
    - intros f _ s0 HP. exact HP.
    - intros t s0 HP. unfold m_write, buf_write. destruct t as [|c t]; [exact HP|].
      unfold bufP_strict in *. destruct (s_buf s0) as [|base size rt]; [exact Logic.I|].
      destruct HP as (Hs & Hbase & Hl).
      destruct (l_out lim) as [L|] eqn:EL.
      + destruct (_ >? _) eqn:E0; simpl; [exact Logic.I|]. rewrite utf8_bytes_rev_append. simpl. repeat split; try lia.
        intros L' HL'. rewrite ?EL in HL'. inversion HL'; subst. simpl in E0. lia.
      + simpl. rewrite utf8_bytes_rev_append. simpl. repeat split; try lia. intros L' HL'. rewrite ?EL in HL'. discriminate.
    - intros x val s0 HP. pose proof (m_assign_keeps_buf v lim x val s0) as Fr. unfold bufP_strict in *.
      destruct (m_assign v lim x val s0) as [s'|e s'|]; simpl; auto; destruct Fr as (-> & _); exact HP.
    - intros s0 HP. exact Logic.I.
    - intros s0 HP. unfold bufP_strict; simpl. destruct (bufinv_strict_size _ HP). apply bufinv_strict_fresh; assumption.
    - intros f s0 HI HP. unfold bufP_strict, sup_buf; simpl. unfold bsz_strict in HI.
      destruct (f_bsz f); [destruct HI; apply bufinv_strict_fresh; assumption|].
      destruct (bufinv_strict_size _ HP). apply bufinv_strict_fresh; assumption.
    - intros s1 s2 HP Hq. apply leave_blk_some in Hq as (c & _ & ->). exact HP.
    - exact Logic.I.
    - unfold bufP_strict; simpl. repeat split; try lia. intros L HL. specialize (Hpos L HL). lia.
  Qed.
End OutStrict.

(* ------------------------------------------------------------------ reading facts off one evaluation of a render *)
(* Examples evaluate a render once and keep only the part of the final state they speak about: the proof term then
   holds that part, not the whole state. *)
Definition ok_view {A} (g : st -> A) (r : lres st) : option A := match r with LOk s => Some (g s) | _ => None end.

Lemma ok_view_some {A} (g : st -> A) r a (Q : st -> Prop) :
  ok_view g r = Some a -> (forall s, g s = a -> Q s) -> exists s, r = LOk s /\ Q s.
Proof.
  destruct r as [s|e s|]; try discriminate. intros Hv HQ. injection Hv as Hv.
  exists s. split; [reflexivity|exact (HQ s Hv)].
Qed.

Lemma raises_class (r : lres st) x : match r with LErr e _ => lexn_eqb e x | _ => false end = true -> exists se, r = LErr x se.
Proof. destruct r as [s|e s|]; try discriminate. destruct e, x; try discriminate; intros _; exists s; reflexivity. Qed.
