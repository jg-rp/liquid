(* C01 -- about PairSync.v: each repaired asynchronous copy equals its synchronous copy on every input; each copy as
   found equals it under a guard that excludes the witness against it (witnesses: here for the evaluation count and the
   filter hypothesis, the others in Props/C01.v). *)
From Coq Require Import String List.
From LiquidVerif Require Import Prelude PyPrims PairSync.
Import ListNotations.
Local Open Scope list_scope.

(* 1. context lookup and path evaluation *)
Lemma walk_async_eq rest : forall obj, walk_async obj rest = walk obj rest.
Proof. induction rest as [|s r IH]; intro obj; simpl; auto; destruct (get_item obj s); auto. Qed.

Theorem ctx_get_async_eq sc segs : ctx_get_async sc segs = ctx_get sc segs.
Proof.
  destruct segs as [|[root| |] rest]; [reflexivity| |reflexivity|reflexivity].
  cbn [ctx_get_async ctx_get]. destruct (alookup root sc); [rewrite walk_async_eq|]; reflexivity.
Qed.

(* the inner loop of eval_path, with the evaluation of a nested path as a parameter *)
Definition eval_segs (ev : path -> res val) : list pseg -> res (list seg) :=
  fix segs l :=
    match l with
    | [] => Ok []
    | PName s :: r => do rs <- segs r; Ok (SStr s :: rs)
    | PIndex z :: r => do rs <- segs r; Ok (SInt z :: rs)
    | PNested q :: r =>
        match ev q with
        | Ok v => do rs <- segs r; Ok (to_seg v :: rs)
        | Err e => Err e
        | OutOfFuel => OutOfFuel
        end
    end.

Lemma eval_path_S getter f sc p :
  eval_path getter (S f) sc p = do ss <- eval_segs (eval_path getter f sc) p; getter sc ss.
Proof. reflexivity. Qed.

(* only the nested paths of l are handed to ev *)
Lemma eval_segs_ext ev1 ev2 l :
  (forall q, In (PNested q) l -> ev1 q = ev2 q) -> eval_segs ev1 l = eval_segs ev2 l.
Proof.
  induction l as [|x r IH]; intro H; [reflexivity|].
  assert (E : eval_segs ev1 r = eval_segs ev2 r) by (apply IH; intros q Hq; apply H; right; exact Hq).
  destruct x as [s|z|q]; cbn [eval_segs]; fold (eval_segs ev1 r) (eval_segs ev2 r); rewrite E; try reflexivity.
  rewrite (H q (or_introl eq_refl)). reflexivity.
Qed.

(* a getter only enters path evaluation through its results: equal getters give equal evaluations *)
Lemma eval_path_ext g1 g2 : (forall sc ss, g1 sc ss = g2 sc ss) ->
  forall fuel sc p, eval_path g1 fuel sc p = eval_path g2 fuel sc p.
Proof.
  intro H. induction fuel as [|f IH]; intros sc p; [reflexivity|].
  rewrite !eval_path_S, (eval_segs_ext _ (eval_path g2 f sc) p) by (intros q _; apply IH).
  destruct (eval_segs _ p) as [ss| |]; [apply H|reflexivity|reflexivity].
Qed.

(* Path.evaluate_async = Path.evaluate, for every path (any nesting), scope and fuel *)
Theorem path_async_eq fuel sc p : eval_path_async fuel sc p = eval_path_sync fuel sc p.
Proof. apply eval_path_ext. intros. apply ctx_get_async_eq. Qed.

(* as found, the getters differ only where the first segment is not a name ... *)
Lemma ctx_get_old_named sc s rest : ctx_get_async_old sc (SStr s :: rest) = ctx_get sc (SStr s :: rest).
Proof. cbn [ctx_get_async_old ctx_get]. destruct (alookup s sc); [rewrite walk_async_eq|]; reflexivity. Qed.

(* ... so the evaluations are equal whenever the root of the path and of every nested path is a name (what every test
   samples) *)
Theorem path_async_old_partial : forall fuel sc p,
  roots_named fuel p = true -> eval_path_async_old fuel sc p = eval_path_sync fuel sc p.
Proof.
  unfold eval_path_async_old, eval_path_sync.
  induction fuel as [|f IH]; intros sc p G; [discriminate|].
  destruct p as [|[s| |] r]; try discriminate G.
  cbn [roots_named] in G. rewrite forallb_forall in G.
  rewrite !eval_path_S, (eval_segs_ext _ (eval_path ctx_get f sc) (PName s :: r)) by (intros q Hq; apply IH, (G _ Hq)).
  cbn [eval_segs]. fold (eval_segs (eval_path ctx_get f sc) r).
  destruct (eval_segs _ r) as [rs| |]; [apply ctx_get_old_named|reflexivity|reflexivity].
Qed.

(* 2. if / elsif *)
Lemma alts_async_eq alts : forall n dflt, alts_async n alts dflt = alts_sync n alts dflt.
Proof. induction alts as [|[c b] r IH]; intros n dflt; simpl; auto; destruct (c n); auto. Qed.

(* as found, side-effect-free conditions: the same blocks are rendered ... *)
Lemma alts_async_old_pure alts : Forall (fun cb => pure_cond (fst cb)) alts ->
  forall n m dflt, fst (alts_async_old n alts dflt) = fst (alts_sync m alts dflt).
Proof.
  induction 1 as [|[c b] r P _ IH]; intros n m dflt; simpl; auto.
  simpl in P. rewrite (P n m). destruct (c m) eqn:E; [|apply IH].
  rewrite (P (S n) m), E. reflexivity.
Qed.

(* ... while the evaluation count differs even then *)
Theorem if_async_old_counts_refuted : exists node,
  pure_cond (i_cond node) /\ Forall (fun cb => pure_cond (fst cb)) (i_alts node) /\
  snd (if_async_old 0 node) <> snd (if_sync 0 node).
Proof.
  exists {| i_cond := fun _ => false; i_then := 0%N; i_alts := [((fun _ => true), 1%N)]; i_else := None |}.
  split; [intros ? ?; reflexivity|]. split; [constructor; [intros ? ?; reflexivity | constructor]|].
  vm_compute. discriminate.
Qed.

(* 3. filtered and ternary expressions *)
Definition filters_agree (fs : list filt) : Prop :=
  Forall (fun f => match f_async f with Some g => forall v, g v = f_sync f v | None => True end) fs.

Lemma apply_async_eq fs : filters_agree fs -> forall v, apply_async fs v = apply_sync fs v.
Proof.
  induction 1 as [|f r A _ IH]; intro v; simpl; auto.
  destruct (f_async f) as [g|]; [rewrite A|]; destruct (f_sync f v); simpl; auto.
Qed.

Theorem filtered_async_eq left fs : filters_agree fs -> filtered_async left fs = filtered_sync left fs.
Proof. intro A. unfold filtered_async, filtered_sync. destruct left; simpl; auto. apply apply_async_eq, A. Qed.

Lemma filters_agree_builtin fs : Forall (fun f => f_async f = None) fs -> filters_agree fs.
Proof. induction 1 as [|f r A _ IH]; constructor; auto. rewrite A. exact I. Qed.

(* a filter whose asynchronous version differs is visible: the hypothesis is needed *)
Theorem filtered_async_needs_agreement :
  exists f v, filtered_async (Ok v) [f] <> filtered_sync (Ok v) [f].
Proof.
  exists {| f_sync := fun v => Ok v; f_async := Some (fun _ => Ok VNil) |}, (VInt 1). vm_compute. discriminate.
Qed.

(* 4. loader: template name *)
Lemma basename_acc_noslash s : forall acc, has_slash s = false -> basename_acc s acc = rev acc ++ s.
Proof.
  induction s as [|c r IH]; intros acc H; simpl in *.
  - rewrite app_nil_r. reflexivity.
  - apply orb_false_iff in H. destruct H as [A B]. rewrite A. rewrite IH by exact B. simpl. rewrite <- app_assoc. reflexivity.
Qed.
