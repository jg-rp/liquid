(* Scope_Proofs.v — lemmas about the scope chain, path resolution and the balance of pushed namespaces (C14), and the
   rules (ends) by which a property of every node is carried through exec_step, here and in the files that import it. *)
From Coq Require Import String Ascii List ZifyBool.
From LiquidVerif Require Import Prelude PyPrims Scope.
Import ListNotations.

Lemma alookup_dict_set {V} x k (v : V) l :
  alookup x (dict_set k v l) = if str_eqb x k then Some v else alookup x l.
Proof.
  induction l as [|[k' v'] l IH]; simpl.
  - reflexivity.
  - destruct (str_eqb_spec k k') as [->|Hkk']; simpl.
    + destruct (str_eqb x k'); reflexivity.
    + rewrite IH. destruct (str_eqb_spec x k') as [->|Hx]; [|reflexivity].
      destruct (str_eqb_spec k' k) as [E|_]; [congruence|reflexivity].
Qed.

Lemma alookup_dict_set_same {V} k (v : V) l : alookup k (dict_set k v l) = Some v.
Proof. rewrite alookup_dict_set, str_eqb_refl. reflexivity. Qed.

Lemma alookup_dict_set_other {V} x k (v : V) l : x <> k -> alookup x (dict_set k v l) = alookup x l.
Proof. intro H. rewrite alookup_dict_set. destruct (str_eqb_spec x k); congruence. Qed.

Lemma first_hit_app x a b :
  first_hit x (a ++ b) = match first_hit x a with Some v => Some v | None => first_hit x b end.
Proof. induction a as [|m a IH]; simpl; [reflexivity|]. destruct (alookup x m); [reflexivity|apply IH]. Qed.

Lemma alookup_counter_ns x c : alookup x (counter_ns c) = option_map VInt (alookup x (counters c)).
Proof.
  unfold counter_ns. induction (counters c) as [|[k n] l IH]; simpl; [reflexivity|].
  destruct (str_eqb x k); [reflexivity|apply IH].
Qed.

(* a name resolves to the first namespace, in the documented order, that binds it *)
Lemma resolve_is_first_hit c x : resolve c x = first_hit x (chain c).
Proof.
  unfold resolve, chain. rewrite first_hit_app. destruct (first_hit x (scopes c)); [reflexivity|].
  cbn [app first_hit]. destruct (alookup x (locals c)); [reflexivity|].
  rewrite first_hit_app. destruct (first_hit x (gl c)); [reflexivity|].
  cbn [app first_hit]. destruct (alookup x builtin_ns); [reflexivity|].
  rewrite alookup_counter_ns. destruct (alookup x (counters c)); reflexivity.
Qed.

Lemma first_hit_skip x pre m post v :
  (forall m', In m' pre -> alookup x m' = None) -> alookup x m = Some v ->
  first_hit x (pre ++ m :: post) = Some v.
Proof.
  intros Hpre Hm. induction pre as [|p pre IH]; simpl.
  - rewrite Hm. reflexivity.
  - rewrite (Hpre p (or_introl eq_refl)). apply IH. intros m' Hin. apply Hpre. right. exact Hin.
Qed.

Lemma first_hit_none x ms : (forall m, In m ms -> alookup x m = None) -> first_hit x ms = None.
Proof.
  induction ms as [|m ms IH]; simpl; intro H; [reflexivity|].
  rewrite (H m (or_introl eq_refl)). apply IH. intros m' Hin. apply H. right. exact Hin.
Qed.

(* a name bound nowhere in the chain is unresolved (and then evaluates to the undefined value) *)
Lemma resolve_missing c x : (forall m, In m (chain c) -> alookup x m = None) -> resolve c x = None.
Proof. intro H. rewrite resolve_is_first_hit. apply first_hit_none. exact H. Qed.

Lemma alookup_not_in {V} k (l : list (str * V)) : ~ In k (map fst l) -> alookup k l = None.
Proof.
  intro H. destruct (alookup k l) as [v|] eqn:E; [|reflexivity].
  destruct H. exact (in_map fst _ _ (alookup_In _ _ _ E)).
Qed.

(* {**env.globals, **template_globals}: template globals take priority over environment globals
   (a Python dict has each key once) *)
Lemma merge_globals_lookup x eg tg :
  NoDup (map fst tg) ->
  alookup x (merge_globals eg tg) = match alookup x tg with Some v => Some v | None => alookup x eg end.
Proof.
  unfold merge_globals. revert eg. induction tg as [|[k v] tg IH]; intros eg Hnd; simpl; [reflexivity|].
  inversion Hnd as [|? ? Hk Hnd']; subst. rewrite IH by exact Hnd'.
  destruct (str_eqb_spec x k) as [->|Hx].
  - simpl in Hk. rewrite (alookup_not_in k tg Hk). apply alookup_dict_set_same.
  - destruct (alookup x tg); [reflexivity|]. apply alookup_dict_set_other. exact Hx.
Qed.

(* Q holds of the context and the signal a run ends with (a run out of fuel does not end).  exec_step is built from
   lift, after, seq_nodes, loop_items and tmpl_nodes: each has its rule here, so that a property of every node is
   proved by following exec_step with one rule per combinator. *)
Definition ends (o : outcome) (Q : ctx -> signal -> Prop) : Prop :=
  match o with Done c _ s => Q c s | Fuel => True end.

Lemma ends_done o Q c out s : ends o Q -> o = Done c out s -> Q c s.
Proof. intros H ->. exact H. Qed.

Lemma ends_const o (Q : ctx -> signal -> Prop) : (forall c s, Q c s) -> ends o Q.
Proof. intro H. destruct o; [apply H|exact I]. Qed.

Lemma ends_weaken o (Q Q' : ctx -> signal -> Prop) : (forall c s, Q c s -> Q' c s) -> ends o Q -> ends o Q'.
Proof. intro H. destruct o; [apply H|trivial]. Qed.

Lemma ends_lift {A} (r : res A) c k (Q : ctx -> signal -> Prop) :
  (forall e, r = Err e -> Q c (Raise e)) -> (forall a, r = Ok a -> ends (k a) Q) -> ends (lift r c k) Q.
Proof. intros He Hk. destruct r as [a|e|]; [apply Hk|apply He|exact I]; reflexivity. Qed.

Lemma ends_after o f (Q : ctx -> signal -> Prop) : ends o (fun c s => Q (f c) s) -> ends (after o f) Q.
Proof. destruct o; intro H; exact H. Qed.

(* render, call and an overriding block hand the caller's context back *)
Lemma ends_back c o (Q : ctx -> signal -> Prop) :
  ends o (fun _ s => Q c s) -> ends (match o with Fuel => Fuel | Done _ out s => Done c out s end) Q.
Proof. destruct o; intro H; exact H. Qed.

(* in the three loops Q c Normal says that the loop may go on from c *)
Lemma ends_seq_nodes run l (Q : ctx -> signal -> Prop) :
  (forall n c, Q c Normal -> ends (run n c) Q) -> forall c, Q c Normal -> ends (seq_nodes run l c) Q.
Proof.
  intro Hrun. induction l as [|n l IH]; intros c Hc; simpl; [exact Hc|].
  specialize (Hrun n c Hc). destruct (run n c) as [c1 o1 s1|]; [|exact I].
  destruct s1; try exact Hrun.
  specialize (IH c1 Hrun). destruct (seq_nodes run l c1); exact IH.
Qed.

Lemma ends_loop_items catch run items (Q : ctx -> signal -> Prop) :
  (forall c s, Q c s -> Q c Normal) ->
  (forall c v i, Q c Normal -> ends (run c v i) Q) ->
  forall i c, Q c Normal -> ends (loop_items catch run items i c) Q.
Proof.
  intros HN Hrun. induction items as [|v items IH]; intros i c Hc; simpl; [exact Hc|].
  specialize (Hrun c v i Hc). destruct (run c v i) as [c1 o1 s1|]; [|exact I]. cbn [ends] in Hrun.
  specialize (IH (i + 1)%Z c1 (HN _ _ Hrun)).
  (* a caught break ends the loop normally, a caught continue goes on *)
  destruct (loop_items catch run items (i + 1)%Z c1) as [c2 o2 s2|];
    (destruct s1; [exact IH|destruct catch; [exact (HN _ _ Hrun)|exact Hrun]|destruct catch; [exact IH|exact Hrun]|exact Hrun]).
Qed.

(* what the node loop of a template makes of a node's signal *)
Definition tmpl_signal (propagate : bool) (s : signal) : signal :=
  match s with Break | Continue => if propagate then s else Raise ESyntax | _ => s end.

Lemma ends_tmpl_nodes md pr run l (Q : ctx -> signal -> Prop) :
  (forall c s, Q c s -> Q c Normal) ->
  (forall n c, Q c Normal -> ends (run n c) (fun c' s => Q c' (tmpl_signal pr s))) ->
  forall c, Q c Normal -> ends (tmpl_nodes md pr run l c) Q.
Proof.
  intros HN Hrun. induction l as [|n l IH]; intros c Hc; simpl; [exact Hc|].
  specialize (Hrun n c Hc). destruct (run n c) as [c1 o1 s1|]; [|exact I]. cbn [ends] in Hrun.
  specialize (IH c1 (HN _ _ Hrun)).
  change (match s1 with Break | Continue => if pr then s1 else Raise ESyntax | _ => s1 end) with (tmpl_signal pr s1).
  destruct (tmpl_signal pr s1) as [| | |e]; try exact Hrun.
  - destruct (tmpl_nodes md pr run l c1); exact IH.
  - destruct md; [exact Hrun|]. destruct (is_liquid e); [|exact Hrun]. destruct (tmpl_nodes MLax pr run l c1); exact IH.
Qed.

Lemma exec_S f E n c : exec (S f) E n c = exec_step E (exec f E) n c.
Proof. reflexivity. Qed.

(* a prefix that completes: the rest goes on from where it ended *)
Lemma seq_nodes_app run pre post c c1 o1 :
  seq_nodes run pre c = Done c1 o1 Normal ->
  seq_nodes run (pre ++ post) c =
  match seq_nodes run post c1 with Fuel => Fuel | Done c2 o2 s => Done c2 (o1 ++ o2) s end.
Proof.
  revert c o1. induction pre as [|n pre IH]; intros c o1 H; simpl in *.
  - inversion H; subst. destruct (seq_nodes run post c1); reflexivity.
  - destruct (run n c) as [ca oa sa|]; [|discriminate]. destruct sa; try discriminate.
    destruct (seq_nodes run pre ca) as [cb ob sb|] eqn:E; [|discriminate]. inversion H; subst.
    rewrite (IH _ _ E). destruct (seq_nodes run post c1); [rewrite app_assoc|]; reflexivity.
Qed.

Lemma tmpl_nodes_app md pr run pre post c c1 o1 :
  seq_nodes run pre c = Done c1 o1 Normal ->
  tmpl_nodes md pr run (pre ++ post) c =
  match tmpl_nodes md pr run post c1 with Fuel => Fuel | Done c2 o2 s => Done c2 (o1 ++ o2) s end.
Proof.
  revert c o1. induction pre as [|n pre IH]; intros c o1 H; simpl in *.
  - inversion H; subst. destruct (tmpl_nodes md pr run post c1); reflexivity.
  - destruct (run n c) as [ca oa sa|]; [|discriminate]. destruct sa; try discriminate.
    destruct (seq_nodes run pre ca) as [cb ob sb|] eqn:E; [|discriminate]. inversion H; subst.
    rewrite (IH _ _ E). destruct (tmpl_nodes md pr run post c1); [rewrite app_assoc|]; reflexivity.
Qed.

(* everything a node is NOT allowed to change: the pushed namespaces, the globals chain, the root globals and the
   disabled tags.  Only locals, counters and the macro table may differ afterwards. *)
Definition same_frame (c c' : ctx) : Prop :=
  scopes c' = scopes c /\ gl c' = gl c /\ base c' = base c /\ disabled c' = disabled c.

Lemma same_frame_refl c : same_frame c c.
Proof. repeat split. Qed.

Lemma same_frame_trans a b c : same_frame a b -> same_frame b c -> same_frame a c.
Proof. unfold same_frame. intros (A1 & A2 & A3 & A4) (B1 & B2 & B3 & B4). repeat split; congruence. Qed.

(* c is the frame below the innermost namespace of a: push and set_head give such an a, and it stays one *)
Lemma same_frame_pop c a b : same_frame c (pop a) -> same_frame a b -> same_frame c (pop b).
Proof.
  unfold same_frame, pop. cbn [set_scopes scopes gl base disabled].
  intros (A1 & A2 & A3 & A4) (B1 & B2 & B3 & B4). rewrite B1, B2, B3, B4. repeat split; assumption.
Qed.

Lemma ends_under c a o :
  same_frame c (pop a) -> ends o (fun b _ => same_frame a b) -> ends o (fun b _ => same_frame c (pop b)).
Proof. intro Ha. apply ends_weaken. intros b _. apply same_frame_pop, Ha. Qed.

Lemma same_frame_is_disabled t c c' : same_frame c c' -> is_disabled t c' = is_disabled t c.
Proof. intros (_ & _ & _ & D). unfold is_disabled. rewrite D. reflexivity. Qed.

Definition frame_ok (run : node -> ctx -> outcome) : Prop :=
  forall n c c' o s, run n c = Done c' o s -> same_frame c c'.

Lemma ends_lift_frame {A} (r : res A) c k :
  (forall a, ends (k a) (fun c' _ => same_frame c c')) -> ends (lift r c k) (fun c' _ => same_frame c c').
Proof. intro Hk. apply ends_lift; [intros; apply same_frame_refl|intros a _; apply Hk]. Qed.

Lemma frame_ok_step run c0 n c :
  frame_ok run -> same_frame c0 c -> ends (run n c) (fun c' _ => same_frame c0 c').
Proof.
  intros Hrun Hc. destruct (run n c) as [c' o s|] eqn:E; [|exact I].
  exact (same_frame_trans _ _ _ Hc (Hrun _ _ _ _ _ E)).
Qed.

Lemma seq_nodes_frame run l c : frame_ok run -> ends (seq_nodes run l c) (fun c' _ => same_frame c c').
Proof.
  intro Hrun. apply ends_seq_nodes; [|apply same_frame_refl]. intros n a. apply frame_ok_step, Hrun.
Qed.

Lemma run_template_frame md p pr run body c :
  frame_ok run -> ends (run_template md p pr run body c) (fun c' _ => same_frame c c').
Proof.
  intro Hrun. unfold run_template. apply ends_after, (ends_under c (push c [(s_partial, VBool p)])); [repeat split|].
  apply ends_tmpl_nodes; [auto|intros n a; apply frame_ok_step, Hrun|apply same_frame_refl].
Qed.

(* render, call and an overriding block leave the caller's context exactly as it was *)
Lemma render_returns_caller E run name var args c :
  ends (exec_step E run (NRender name var args) c) (fun c' _ => c' = c).
Proof.
  cbn [exec_step]. destruct (alookup name (e_loader E)) as [body|]; [|exact eq_refl].
  apply ends_lift; [reflexivity|]. intros na _.
  destruct var as [[[p lp] alias]|]; [|apply ends_back, ends_const; reflexivity].
  apply ends_lift; [reflexivity|]. intros v _.
  destruct (if lp then arraylike (e_uk E) v else ANot); [| |exact eq_refl]; apply ends_back, ends_const; reflexivity.
Qed.

Lemma call_returns_caller E run name kws c :
  ends (exec_step E run (NCall name kws) c) (fun c' _ => c' = c).
Proof.
  cbn [exec_step]. destruct (alookup name (macros c)) as [[ps body]|]; (apply ends_lift; [reflexivity|]).
  - intros nm _. apply ends_back, ends_const; reflexivity.
  - intros t _. exact eq_refl.
Qed.

Lemma block_returns_caller E run name body ovs c :
  overrides c = Some ovs -> ends (exec_step E run (NBlock name body) c) (fun c' _ => c' = c).
Proof.
  intro Ho. cbn [exec_step]. rewrite Ho. destruct (is_disabled TBlock c); [exact eq_refl|].
  apply ends_back, ends_const; reflexivity.
Qed.

Lemma ends_same_frame c o : ends o (fun c' _ => c' = c) -> ends o (fun c' _ => same_frame c c').
Proof. apply ends_weaken. intros c' _ ->. apply same_frame_refl. Qed.

Lemma exec_step_keeps_frame E run n c : frame_ok run -> ends (exec_step E run n c) (fun c' _ => same_frame c c').
Proof.
  intro Hrun. destruct n; cbn [exec_step]; try apply same_frame_refl.
  - (* output *) apply ends_lift_frame. intro v. apply ends_lift_frame. intro t. apply same_frame_refl.
  - (* assign *) apply ends_lift_frame. intro v. repeat split.
  - (* capture *)
    pose proof (seq_nodes_frame run body c Hrun) as H.
    destruct (seq_nodes run body c) as [c1 o1 s1|]; [|exact I]. destruct s1; exact H.
  - (* if *) apply ends_lift_frame. intro b. apply seq_nodes_frame, Hrun.
  - (* for: every round runs below the loop namespace *)
    apply ends_lift_frame. intros [|v0 items0]; [apply seq_nodes_frame, Hrun|].
    apply ends_after, (ends_loop_items _ _ _ (fun c1 _ => same_frame c (pop c1))); [auto| |repeat split].
    intros ci v i Hci. eapply ends_under; [|apply seq_nodes_frame, Hrun]. exact Hci.
  - (* with *)
    apply ends_lift_frame. intro nw.
    apply ends_after, (ends_under c (push c nw)); [repeat split|apply seq_nodes_frame, Hrun].
  - (* include: the partial runs below the argument namespace *)
    destruct (is_disabled TInclude c); [apply same_frame_refl|].
    destruct (alookup name (e_loader E)) as [body|]; [|apply same_frame_refl].
    apply ends_lift_frame. intro na. apply ends_after.
    assert (U0 : same_frame c (pop (push c na))) by (repeat split).
    destruct var as [[p alias]|]; [|apply (ends_under c (push c na)); [exact U0|apply run_template_frame, Hrun]].
    apply ends_lift; [intros; exact U0|]. intros v _. destruct (arraylike (e_uk E) v); [| |exact U0].
    + apply (ends_loop_items _ _ _ (fun c1 _ => same_frame c (pop c1))); [auto| |exact U0].
      intros ci itm i Hci. eapply ends_under; [|apply run_template_frame, Hrun]. exact Hci.
    + eapply ends_under; [|apply run_template_frame, Hrun]. exact U0.
  - (* render *) apply ends_same_frame, render_returns_caller.
  - (* macro *) repeat split.
  - (* call *) apply ends_same_frame, call_returns_caller.
  - (* increment *) repeat split.
  - (* decrement *) repeat split.
  - (* block *)
    destruct (is_disabled TBlock c); [apply same_frame_refl|]. destruct (overrides c) as [ovs|].
    + apply ends_back, ends_const. intros; apply same_frame_refl.
    + apply ends_after, (ends_under c (push c [(s_block, VBuiltin)])); [repeat split|apply seq_nodes_frame, Hrun].
  - (* extends *)
    destruct (alookup base (e_loader E)) as [body|]; [|apply same_frame_refl].
    apply ends_after. eapply ends_weaken; [|apply (run_template_frame _ _ _ _ _ _ Hrun)].
    intros c1 s1 H. exact H.
Qed.

(* THE BALANCE INVARIANT: whatever a node does — complete, break, continue or raise — the pushed namespaces
   (and the globals chain, root globals, disabled tags) are afterwards exactly what they were before *)
Lemma exec_step_frame E run : frame_ok run -> frame_ok (exec_step E run).
Proof. intros Hrun n c c' o s H. exact (ends_done _ _ _ _ _ (exec_step_keeps_frame E run n c Hrun) H). Qed.

Theorem exec_frame fuel E : frame_ok (exec fuel E).
Proof.
  induction fuel as [|f IH].
  - intros n c c' o s H. discriminate.
  - simpl. apply exec_step_frame. exact IH.
Qed.

(* block-scoped names vanish after their block: the scopes after ANY node, on any signal, are the scopes before *)
Corollary exec_scopes_balanced fuel E n c c' o s :
  exec fuel E n c = Done c' o s -> scopes c' = scopes c.
Proof. intro H. apply exec_frame in H. apply H. Qed.

Definition no_interrupt (s : signal) : Prop := s = Normal \/ exists e, s = Raise e.

(* a break/continue never leaves a top-level template (or an isolated partial): it becomes a syntax error *)
Lemma run_template_no_interrupt md p run body c :
  ends (run_template md p false run body c) (fun _ s => no_interrupt s).
Proof.
  unfold run_template. apply ends_after, ends_tmpl_nodes; [left; reflexivity| |left; reflexivity].
  intros n a _. apply ends_const. intros _ [| | |e]; [left; reflexivity|right; eexists; reflexivity..].
Qed.

(* read: where run_case gives Err EOtherForeign the run itself raised it, so the last branch of finish is never taken *)
Lemma run_case_never_interrupt k : run_case k <> Err EOtherForeign \/ exists c o, run_top k = Done c o (Raise EOtherForeign).
Proof.
  unfold run_case, finish. pose proof (run_template_no_interrupt (k_mode k) false (exec run_fuel (case_env k)) (k_body k) (init_ctx k)) as H.
  fold (run_top k) in H. destruct (run_top k) as [c o s|]; [|left; discriminate].
  destruct H as [->|[e ->]]; [left; discriminate|].
  destruct e; try (left; discriminate). right; eauto.
Qed.

(* whatever is pushed on the scopes, the assigned name lands in the locals with its new value, the scopes are untouched *)
Lemma assign_writes_locals c x v :
  alookup x (locals (assign c x v)) = Some v /\ scopes (assign c x v) = scopes c /\
  forall y, y <> x -> alookup y (locals (assign c x v)) = alookup y (locals c).
Proof.
  unfold assign. simpl. split; [apply alookup_dict_set_same|]. split; [reflexivity|].
  intros y Hy. apply alookup_dict_set_other. exact Hy.
Qed.

(* ... and is then what the name resolves to wherever no pushed namespace shadows it *)
Lemma assign_then_resolve c x v :
  first_hit x (scopes c) = None -> resolve (assign c x v) x = Some v.
Proof.
  intro H. unfold resolve. simpl. rewrite H. rewrite alookup_dict_set_same. reflexivity.
Qed.

(* assignment from inside any nesting of with / for / if / capture blocks *)
(* a frame here is one such block; same_frame and frame_ok above mean the part of a context a node leaves alone *)
Inductive frame :=
| FWith (args : list (str * expr))
| FFor (y : str) (a b : Z)
| FIf (cd : cond) (els : list node)
| FCapture (y : str).

Fixpoint wrap_frames (fs : list frame) (n : node) : node :=
  match fs with
  | [] => n
  | FWith args :: r => NWith args [wrap_frames r n]
  | FFor y a b :: r => NFor y (IRange a b) [wrap_frames r n] []
  | FIf cd els :: r => NIf cd [wrap_frames r n] els
  | FCapture y :: r => NCapture y [wrap_frames r n]
  end.

Definition frame_ok_for (x : str) (uk : ukind) (c : ctx) (f : frame) : Prop :=
  match f with
  | FFor _ a b => (a <= b)%Z
  | FCapture y => y <> x
  | FIf cd _ => forall c', eval_cond uk c' cd = Ok true
  | FWith _ => True
  end.

Lemma seq_single run n c : seq_nodes run [n] c =
  match run n c with Fuel => Fuel | Done c1 o1 Normal => Done c1 (o1 ++ []) Normal | Done c1 o1 s => Done c1 o1 s end.
Proof. simpl. destruct (run n c) as [c1 o1 s1|]; [|reflexivity]. destruct s1; reflexivity. Qed.

(* the loop of a for tag whose body ends normally or raises: afterwards P holds as after the last round *)
Lemma loop_items_last (P : ctx -> Prop) run items :
  items <> [] ->
  (forall c v i, ends (run c v i) (fun c' s => no_interrupt s /\ (s = Normal -> P c'))) ->
  forall i c, ends (loop_items true run items i c) (fun c' s => no_interrupt s /\ (s = Normal -> P c')).
Proof.
  intros Hne Hrun. induction items as [|v items IH]; [congruence|]. clear Hne.
  intros i c. simpl. specialize (Hrun c v i). destruct (run c v i) as [c1 o1 s1|]; [|exact I].
  destruct Hrun as [[->|[e ->]] HP].
  - destruct items as [|v2 items]; [split; [left; reflexivity|exact HP]|].
    assert (IH' := IH ltac:(discriminate) (i + 1)%Z c1). destruct (loop_items true run (v2 :: items) (i + 1)%Z c1); exact IH'.
  - split; [right; eauto|discriminate].
Qed.

(* C14 "assign always writes the template's top-level scope": an assignment wrapped in any nesting of with, for
   (over a non-empty range), if (whose condition holds) and capture blocks leaves the assigned value in the LOCALS,
   visible after all the blocks have ended *)
Theorem assign_under_blocks uk x lv md ld ft : forall fs fuel c,
  (forall f c0, In f fs -> frame_ok_for x uk c0 f) ->
  ends (exec fuel (Env md uk ld ft) (wrap_frames fs (NAssign x (FPlain (ELit lv) []))) c)
       (fun c' s => no_interrupt s /\ (s = Normal -> alookup x (locals c') = Some (val_of_scalar lv))).
Proof.
  induction fs as [|f fs IH]; intros fuel c Hok; (destruct fuel as [|fuel]; [exact I|]).
  - split; [left; reflexivity|]. intros _. apply alookup_dict_set_same.
  - assert (Hok' : forall f0 c0, In f0 fs -> frame_ok_for x uk c0 f0) by (intros; apply Hok; right; assumption).
    (* every frame runs the one node inside it as a block *)
    assert (Hin : forall c1, ends (seq_nodes (exec fuel (Env md uk ld ft)) [wrap_frames fs (NAssign x (FPlain (ELit lv) []))] c1)
                               (fun c' s => no_interrupt s /\ (s = Normal -> alookup x (locals c') = Some (val_of_scalar lv)))).
    { intro c1. rewrite seq_single. specialize (IH fuel c1 Hok'). destruct (exec fuel _ _ c1) as [c2 o2 []|]; exact IH. }
    pose proof (Hok f c (or_introl eq_refl)) as Hf.
    destruct f as [args|y a b|cd els|y]; cbn [wrap_frames exec exec_step e_uk frame_ok_for] in *.
    + apply ends_lift; [intros e _; split; [right; eauto|discriminate]|]. intros nw _. apply ends_after. exact (Hin (push c nw)).
    + cbn [eval_iter lift]. unfold zrange_incl.
      destruct (Z.to_nat (b - a + 1)) as [|k] eqn:Ek; [lia|]. cbn [zrange_from map].
      apply ends_after, (loop_items_last (fun c2 => alookup x (locals c2) = Some (val_of_scalar lv))); [discriminate|].
      intros ci v i. apply Hin.
    + rewrite (Hf c). apply Hin.
    + specialize (Hin c). destruct (seq_nodes _ _ c) as [c1 o1 s1|]; [|exact I]. destruct Hin as [Hw HP].
      destruct s1; try (split; [exact Hw|discriminate]). split; [left; reflexivity|]. intros _.
      cbn. rewrite alookup_dict_set_other; [apply HP; reflexivity|congruence].
Qed.

Definition restyle_seg (g : style -> style) (s : seg) : seg :=
  match s with SKey st k => SKey (g st) k | SNested r ks => SNested r ks end.
Definition restyle (g : style -> style) (p : path) : path := Path (p_root p) (map (restyle_seg g) (p_segs p)).

(* a negative index counts from the end *)
Lemma py_index_negative {A} (l : list A) k :
  (1 <= k <= zlen l)%Z -> py_index l (- k) = nth_error l (Z.to_nat (zlen l - k)).
Proof.
  intro H. unfold py_index. cbn zeta.
  destruct (0 <=? - k)%Z eqn:E1; [lia|].
  destruct (0 <=? zlen l + - k)%Z eqn:E2; [|lia].
  f_equal; lia.
Qed.

Lemma py_index_nonneg {A} (l : list A) z :
  (0 <= z < zlen l)%Z -> py_index l z = nth_error l (Z.to_nat z).
Proof.
  intro H. unfold py_index. cbn zeta.
  destruct (0 <=? z)%Z eqn:E1; [|lia]. destruct (z <? zlen l)%Z eqn:E2; [reflexivity|lia].
Qed.

(* an index outside -len .. len-1 is missing *)
Lemma py_index_out_of_range {A} (l : list A) z :
  (z >= zlen l \/ z < - zlen l)%Z -> py_index l z = None.
Proof.
  intro H. unfold py_index, zlen in *. cbn zeta.
  destruct (0 <=? z)%Z eqn:E1.
  - destruct (z <? Z.of_nat (length l))%Z eqn:E2; [lia|reflexivity].
  - destruct (0 <=? Z.of_nat (length l) + z)%Z eqn:E2; [lia|reflexivity].
Qed.

Lemma str_eqb_slit_neq a b : str_eqb (slit a) (slit b) = false -> slit a <> slit b.
Proof. intros H E. rewrite E, str_eqb_refl in H. discriminate. Qed.

(* the size / first / last table *)
Lemma get_item_size_list g l : get_item g (VList l) (KS s_size) = Some (VInt (zlen l)).
Proof. reflexivity. Qed.
Lemma get_item_size_str g s : get_item g (VStr s) (KS s_size) = Some (VInt (zlen s)).
Proof. reflexivity. Qed.
Lemma get_item_size_dict g d :
  get_item g (VDict d) (KS s_size) = match alookup s_size d with Some v => Some v | None => Some (VInt (zlen d)) end.
Proof. unfold get_item. simpl. destruct (alookup s_size d); reflexivity. Qed.
Lemma get_item_size_scalar g v :
  match v with VNil | VBool _ | VInt _ | VBuiltin => True | _ => False end -> get_item g v (KS s_size) = None.
Proof. destruct v; intro H; try reflexivity; destruct H. Qed.
Lemma get_item_first_list g l : get_item g (VList l) (KS s_first) = hd_error l.
Proof. destruct l; reflexivity. Qed.
Lemma get_item_last_list g l : get_item g (VList l) (KS s_last) = py_index l (-1).
Proof. reflexivity. Qed.
Lemma get_item_first_dict g d :
  get_item g (VDict d) (KS s_first) =
  match alookup s_first d with
  | Some v => Some v
  | None => match d with (k0, v0) :: _ => Some (VTuple [VStr k0; v0]) | [] => None end
  end.
Proof. unfold get_item. simpl. destruct (alookup s_first d); [reflexivity|]. destruct d as [|[k0 v0] d]; reflexivity. Qed.
(* strings: first / last are characters exactly when string_first_and_last is set; an index is a character exactly when
   string_sequences is set; size never depends on the flags; a name never subscripts a string *)
Lemma get_item_first_str g s :
  get_item g (VStr s) (KS s_first) = if fl_first_last g then option_map char_val (hd_error s) else None.
Proof. reflexivity. Qed.
Lemma get_item_last_str g s :
  get_item g (VStr s) (KS s_last) = if fl_first_last g then option_map char_val (py_index s (-1)) else None.
Proof. reflexivity. Qed.
Lemma get_item_index_str g s z :
  get_item g (VStr s) (KI z) = if fl_sequences g then option_map char_val (py_index s z) else None.
Proof. reflexivity. Qed.
Lemma get_item_first_last_str s : get_item default_flags (VStr s) (KS s_first) = None /\ get_item default_flags (VStr s) (KS s_last) = None.
Proof. split; reflexivity. Qed.
(* lists and dicts ignore the flags altogether *)
Lemma get_item_list_flags g g' l k : get_item g (VList l) k = get_item g' (VList l) k.
Proof. destruct k as [s| |]; reflexivity. Qed.
Lemma get_item_dict_flags g g' d k : get_item g (VDict d) k = get_item g' (VDict d) k.
Proof. destruct k as [s| |]; reflexivity. Qed.
Lemma get_item_index_list g l z : get_item g (VList l) (KI z) = py_index l z.
Proof. reflexivity. Qed.
Lemma get_item_name_dict g d s :
  str_eqb s s_size = false -> str_eqb s s_first = false -> str_eqb s s_last = false ->
  get_item g (VDict d) (KS s) = alookup s d.
Proof. intros A B C. unfold get_item. rewrite A, B, C. reflexivity. Qed.

(* anything missing resolves to the undefined value and, with the default undefined type, never to an error *)
Lemma walk_default_total g obj ks : exists v, walk g UDefault obj ks = Ok v.
Proof.
  revert obj. induction ks as [|k ks IH]; intro obj; simpl; [eauto|].
  unfold step_item. simpl. rewrite andb_false_r.
  destruct obj; try (destruct (get_item _ _); [apply IH|eauto]). apply IH.
Qed.

Lemma eval_simple_default_total c r ks : exists v, eval_simple UDefault c r ks = Ok v.
Proof. unfold eval_simple. destruct (resolve c r); [apply walk_default_total|eauto]. Qed.

Lemma eval_segs_default_total c ss : exists vs, eval_segs UDefault c ss = Ok vs.
Proof.
  induction ss as [|s ss [vs IH]]; simpl; [eauto|].
  destruct s as [st k|r ks]; simpl.
  - rewrite IH. simpl. eauto.
  - destruct (eval_simple_default_total c r ks) as [v ->]. simpl. rewrite IH. simpl. eauto.
Qed.

Theorem eval_path_default_total c p : exists v, eval_path UDefault c p = Ok v.
Proof.
  unfold eval_path. destruct (eval_segs_default_total c (p_segs p)) as [vs ->]. simpl.
  destruct (resolve c (p_root p)); [apply walk_default_total|eauto].
Qed.

Lemma eval_expr_default_total c e : exists v, eval_expr UDefault c e = Ok v.
Proof. destruct e; simpl; [eauto|apply eval_path_default_total]. Qed.

Lemma eval_args_default_total c es : exists vs, eval_args UDefault c es = Ok vs.
Proof.
  induction es as [|e es [vs IH]]; simpl; [eauto|].
  destruct (eval_expr_default_total c e) as [v ->]. simpl. rewrite IH. simpl. eauto.
Qed.

Lemma eval_kwargs_default_total c args : forall acc, exists r, eval_kwargs UDefault c args acc = Ok r.
Proof.
  induction args as [|[k e] args IH]; intro acc; simpl; [eauto|].
  destruct (eval_expr_default_total c e) as [v ->]. simpl. apply IH.
Qed.

(* a path whose root is bound nowhere is undefined, whatever follows the root *)
Lemma eval_path_missing_root c p :
  resolve c (p_root p) = None -> eval_path UDefault c p = Ok VUndef.
Proof.
  intro H. unfold eval_path. destruct (eval_segs_default_total c (p_segs p)) as [vs ->]. simpl. rewrite H. reflexivity.
Qed.

(* a path that leaves the data at some segment is undefined from there on *)
Lemma walk_missing_segment g uk obj k ks :
  step_item g uk obj k = SMissing -> walk g uk obj (k :: ks) = Ok VUndef.
Proof. intro H. simpl. rewrite H. reflexivity. Qed.
