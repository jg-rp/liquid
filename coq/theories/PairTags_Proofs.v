(* C01 -- about PairTags.v: what extend and copy hand to the callee, and the data of the two witnesses against the copies once seeded
   (the theorems are C01_include_seeded_refuted and C01_call_seeded_refuted). *)
From Coq Require Import String List.
From LiquidVerif Require Import Prelude PyPrims MacroArgs PairTags.
Import ListNotations.
Local Open Scope list_scope.

(* the two context constructors, when they succeed *)
Lemma extend_ok e c m s c1 s1 : extend e c m s = (Ok c1, s1) ->
  c_scope c1 = m :: c_scope c /\ c_globals c1 = c_globals c /\ s1 = tr1 s (TExtend (map fst m)).
Proof.
  unfold extend. destruct (Nat.ltb (e_depth_limit e) (4 + length (c_scope c))); [discriminate|].
  unfold mbind, trM, ret. intro H. inversion H; subst. auto.
Qed.

Lemma copy_ok e c m d k b t s cx s1 : copy e c m d k b t s = (Ok cx, s1) ->
  c_globals cx = c_globals c /\ c_carry cx = (if k then prod (c_loops c) * c_carry c else 1) /\ c_loops cx = [] /\
  c_counter cx = 0 /\ s1 = tr1 s (TCopy d k b t (map fst m)).
Proof.
  unfold copy. destruct (Nat.ltb (e_depth_limit e) (c_copy_depth c)); [discriminate|].
  unfold mbind, trM, ret. intro H. inversion H; subst. auto.
Qed.

(* copy, with which render and call make the context of their callee, looks nothing up and keeps the caller's globals *)
Theorem render_copy_keeps_caller e c m d k b t s cx s1 :
  copy e c m d k b t s = (Ok cx, s1) -> s_log s1 = s_log s /\ c_globals cx = c_globals c /\ c_counter cx = 0 /\ c_loops cx = [].
Proof. intro H. destruct (copy_ok _ _ _ _ _ _ _ _ _ _ H) as (G & _ & L & N & ->). auto. Qed.

(* seeded divergence 1: bound variable evaluated before the keyword arguments are in scope *)
Definition k_gx : str := lit "gx".
Definition seed1_env : env :=
  {| e_loop_limit := None; e_depth_limit := 30; e_templates := [(lit "p", [PPrint (lit "p")])]; e_macros := [] |}.
Definition seed1_ctx : ctx :=
  {| c_scope := [[]]; c_globals := [(k_gx, VS 5)]; c_carry := 1; c_loops := []; c_no_include := false; c_counter := 0;
     c_copy_depth := 0 |}.
(* {% include 'p' with gx, gx: 7 %} *)
Definition seed1_node : include_node :=
  {| in_name := ELit (VS 0); in_tname := lit "p"; in_var := Some (EVar k_gx); in_alias := None;
     in_args := [(k_gx, ELit (VS 7))] |}.

(* seeded divergence 2: carry_loop_iterations dropped from the copy made by the asynchronous call *)
Definition seed2_env : env :=
  {| e_loop_limit := Some 11; e_depth_limit := 30; e_templates := [];
     e_macros := [(lit "m", ([], [PFor 2]))] |}.
Definition seed2_ctx : ctx :=
  {| c_scope := [[]]; c_globals := []; c_carry := 1; c_loops := [2; 3]; c_no_include := false; c_counter := 0;
     c_copy_depth := 0 |}.
Definition seed2_node : call_node := {| cn_name := lit "m"; cn_pos := []; cn_kws := [] |}.
