(* Round trip of the tag-level structure: parsing the serialisation of a tree gives the tree back. *)
From LiquidVerif Require Import Prelude TagTree.

(* print_node and wf walk the lists inside a block with local fixpoints (the nesting of [node] leaves no other way):
   those are print_nodes / print_secs and wf_nodes / wf_secs *)
Lemma pl_print_nodes body :
  (fix pl (ns : list node) : list ttok := match ns with [] => [] | m :: ns' => print_node m ++ pl ns' end) body = print_nodes body.
Proof. induction body as [|m b IH]; [reflexivity|]. cbn [print_nodes]. rewrite <- IH. reflexivity. Qed.

Lemma print_block n e body secs :
  print_node (NBlock n e body secs) = KTag n e :: print_nodes body ++ print_secs secs ++ [KTag (endname n) []].
Proof.
  cbn [print_node]. rewrite pl_print_nodes.
  match goal with |- _ :: _ ++ ?f secs ++ _ = _ => assert (Hs : f secs = print_secs secs) end.
  { induction secs as [|[[sn se] sb] ss IH]; [reflexivity|].
    cbn [print_secs]. rewrite <- IH, <- (pl_print_nodes sb). reflexivity. }
  rewrite Hs. reflexivity.
Qed.

Lemma mem_true_iff x l : mem x l = true <-> In x l.
Proof.
  induction l as [|y l IH]; cbn; [split; [discriminate|tauto]|].
  rewrite orb_true_iff, IH, str_eqb_eq. split; intros [H|H]; auto.
Qed.

Section RoundTrip.
  Variable kind_of : str -> tagkind.
  Local Notation wf := (TagTree.wf kind_of).
  Local Notation wf_nodes := (TagTree.wf_nodes kind_of).
  Local Notation wf_secs := (TagTree.wf_secs kind_of).

  (* the register is coherent: end tags and section names are not themselves tags, and no section is named like the end tag *)
  Definition reg_ok : Prop := forall n ss, kind_of n = TBlock ss ->
    kind_of (endname n) = TNone /\ (forall s, mem s ss = true -> kind_of s = TNone) /\ mem (endname n) ss = false.

  Lemma wl_wf_nodes ns :
    (fix wl (ns : list node) : bool := match ns with [] => true | m :: r => wf m && wl r end) ns = wf_nodes ns.
  Proof. induction ns as [|m r IH]; [reflexivity|]. cbn [wf_nodes]. rewrite <- IH. reflexivity. Qed.

  Lemma wf_block name e body secs :
    wf (NBlock name e body secs) =
    match kind_of name with TBlock ss => wf_nodes body && wf_secs ss secs | _ => false end.
  Proof.
    cbn [wf]. destruct (kind_of name) as [ss| |]; try reflexivity.
    rewrite wl_wf_nodes. f_equal.
    induction secs as [|[[sn se] sb] r IH]; [reflexivity|]. cbn [wf_secs]. rewrite wl_wf_nodes, IH. reflexivity.
  Qed.

  (* the stop tags are no tags of their own, and what follows a parsed list of nodes is a stop tag or the end *)
  Definition stops_ok (stops : list str) : Prop := forall x, mem x stops = true -> kind_of x = TNone.
  Definition rest_ok (stops : list str) (rest : list ttok) : Prop :=
    match rest with [] => True | KTag n _ :: _ => mem n stops = true | _ => False end.

  Lemma parse_until_stop fuel stops rest : rest_ok stops rest -> parse_until kind_of (S fuel) stops rest = Ok ([], rest).
  Proof.
    destruct rest as [|[| | | |n e] r]; cbn [rest_ok]; try contradiction; [reflexivity|].
    intro Hr. cbn [parse_until]. rewrite Hr. reflexivity.
  Qed.

  Lemma not_stop stops n : stops_ok stops -> kind_of n <> TNone -> mem n stops = false.
  Proof. intros Hs Hk. destruct (mem n stops) eqn:E; [|reflexivity]. destruct (Hk (Hs n E)). Qed.

  (* inside a block, the sections (or the end tag) that follow the body start with a stop tag of the body *)
  Lemma rest_ok_secs n ss secs tail :
    wf_secs ss secs = true -> rest_ok (endname n :: ss) (print_secs secs ++ KTag (endname n) [] :: tail).
  Proof.
    destruct secs as [|[[sn se] sb] r]; cbn [print_secs app rest_ok mem wf_secs].
    - intros _. rewrite str_eqb_refl. reflexivity.
    - intro H. apply andb_true_iff in H as [H _]. apply andb_true_iff in H as [H _]. rewrite H. apply orb_true_r.
  Qed.

  Hypothesis Hreg : reg_ok.

  Lemma inner_ok n ss : kind_of n = TBlock ss -> stops_ok (endname n :: ss).
  Proof.
    intros Hk x Hx. destruct (Hreg n ss Hk) as (He & Hs & _).
    cbn [mem] in Hx. apply orb_true_iff in Hx. destruct Hx as [Hx|Hx].
    - apply str_eqb_eq in Hx. subst x. exact He.
    - apply Hs, Hx.
  Qed.

  Lemma lt_app_r {A} (a b : list A) f : length (a ++ b) < f -> length b < f.
  Proof. rewrite app_length. lia. Qed.

  (* The induction is on the fuel: every recursive call of the parser -- for the body of a block, for each of its
     sections, for what follows the block -- runs with one unit less on a suffix of the tokens, so the induction
     hypothesis covers all of them. *)
  Section Step.
    Variable f : nat.
    Hypothesis IH : forall ns stops rest, wf_nodes ns = true ->
      length (print_nodes ns ++ rest) < f -> stops_ok stops -> rest_ok stops rest ->
      parse_until kind_of f stops (print_nodes ns ++ rest) = Ok (ns, rest).

    Lemma psections_print n ss : kind_of n = TBlock ss ->
      forall secs tail g, wf_secs ss secs = true ->
      length (print_secs secs ++ KTag (endname n) [] :: tail) < g ->
      length (print_secs secs ++ KTag (endname n) [] :: tail) < f ->
      psections (parse_until kind_of f (endname n :: ss)) ss g (print_secs secs ++ KTag (endname n) [] :: tail)
      = Ok (secs, KTag (endname n) [] :: tail).
    Proof.
      intros Hk. destruct (Hreg n ss Hk) as (_ & _ & Hend).
      induction secs as [|[[sn se] sb] secs' IHs]; intros tail g Hwf Hg Hf; (destruct g as [|g']; [inversion Hg|]).
      - cbn [print_secs app psections]. rewrite Hend. reflexivity.
      - cbn [wf_secs] in Hwf. apply andb_true_iff in Hwf as [Hwf Hwf']. apply andb_true_iff in Hwf as [Hm Hsb].
        cbn [print_secs app length] in *. rewrite <- app_assoc in *. apply Nat.succ_lt_mono in Hg.
        cbn [psections]. rewrite Hm.
        rewrite (IH sb _ _ Hsb (Nat.lt_succ_l _ _ Hf) (inner_ok n ss Hk) (rest_ok_secs n ss secs' tail Hwf')).
        cbn [bind fst snd]. rewrite (IHs tail g' Hwf' (lt_app_r _ _ _ Hg) (lt_app_r _ _ _ (Nat.lt_succ_l _ _ Hf))).
        reflexivity.
    Qed.
  End Step.

  Lemma parse_print_until : forall fuel ns stops rest, wf_nodes ns = true ->
    length (print_nodes ns ++ rest) < fuel -> stops_ok stops -> rest_ok stops rest ->
    parse_until kind_of fuel stops (print_nodes ns ++ rest) = Ok (ns, rest).
  Proof.
    induction fuel as [|f IH]; intros ns stops rest Hwf Hf Hs Hr; [inversion Hf|].
    destruct ns as [|m ns]; [apply parse_until_stop, Hr|].
    cbn [wf_nodes] in Hwf. apply andb_true_iff in Hwf as [Hm Hns].
    cbn [print_nodes] in *. rewrite <- app_assoc in *.
    destruct m as [s|s|s|e|name e|name e body secs].
    1-4: cbn [print_node app length] in *; apply Nat.succ_lt_mono in Hf;
         cbn [parse_until]; rewrite (IH ns stops rest Hns Hf Hs Hr); reflexivity.
    - cbn [wf] in Hm. destruct (kind_of name) eqn:Hk; try discriminate.
      cbn [print_node app length] in *. apply Nat.succ_lt_mono in Hf.
      cbn [parse_until]. rewrite (not_stop stops name Hs) by (rewrite Hk; discriminate). rewrite Hk.
      rewrite (IH ns stops rest Hns Hf Hs Hr). reflexivity.
    - rewrite wf_block in Hm. destruct (kind_of name) as [ss| |] eqn:Hk; try discriminate.
      apply andb_true_iff in Hm as [Hb Hsecs].
      rewrite print_block in *. cbn [app length] in *. rewrite <- !app_assoc in *. cbn [app] in *.
      apply Nat.succ_lt_mono in Hf.
      pose proof (lt_app_r _ _ _ Hf) as Hf1. pose proof (lt_app_r _ _ _ Hf1) as Hf2. cbn [length] in Hf2.
      cbn [parse_until]. rewrite (not_stop stops name Hs) by (rewrite Hk; discriminate). rewrite Hk. cbv zeta.
      rewrite (IH body _ _ Hb Hf (inner_ok name ss Hk) (rest_ok_secs name ss secs _ Hsecs)). cbn [bind fst snd].
      rewrite (psections_print f IH name ss Hk secs _ f Hsecs Hf1 Hf1). cbn [bind fst snd]. rewrite str_eqb_refl.
      rewrite (IH ns stops rest Hns (Nat.lt_succ_l _ _ Hf2) Hs Hr). reflexivity.
  Qed.

  (* C04 (structure): for every well-formed tree, parsing its serialisation gives the same tree back *)
  Theorem parse_print_template ns : wf_nodes ns = true -> parse_template kind_of (print_nodes ns) = Ok ns.
  Proof.
    intro Hwf. unfold parse_template.
    rewrite <- (app_nil_r (print_nodes ns)) at 2.
    rewrite (parse_print_until (S (length (print_nodes ns))) ns [] [] Hwf).
    - reflexivity.
    - rewrite app_nil_r. apply Nat.lt_succ_diag_r.
    - intros x Hx. discriminate.
    - exact I.
  Qed.

  (* ... hence serialising the re-parsed tree yields the same tokens again *)
  Corollary print_idempotent ns : wf_nodes ns = true ->
    exists ns', parse_template kind_of (print_nodes ns) = Ok ns' /\ print_nodes ns' = print_nodes ns.
  Proof. intro H. exists ns. split; [apply parse_print_template, H|reflexivity]. Qed.

End RoundTrip.

(* the standard register is coherent: the three conditions, evaluated over its table of block tags *)
Lemma std_reg_ok : reg_ok std_kind.
Proof.
  assert (Htab : forallb (fun ns => match std_kind (endname (fst ns)) with TNone => true | _ => false end
                                     && forallb (fun s => match std_kind s with TNone => true | _ => false end) (snd ns)
                                     && negb (mem (endname (fst ns)) (snd ns))) std_blocks = true)
    by (vm_compute; reflexivity).
  intros n ss H. unfold std_kind in H. destruct (alookup n std_blocks) as [ss'|] eqn:E.
  - injection H as ->. apply alookup_In in E. rewrite forallb_forall in Htab. specialize (Htab _ E). cbn [fst snd] in Htab.
    apply andb_true_iff in Htab as [Htab H3]. apply andb_true_iff in Htab as [H1 H2].
    split; [|split].
    + destruct (std_kind (endname n)); [discriminate|discriminate|reflexivity].
    + intros s Hs. apply mem_true_iff in Hs. rewrite forallb_forall in H2. specialize (H2 s Hs).
      destruct (std_kind s); [discriminate|discriminate|reflexivity].
    + apply negb_true_iff, H3.
  - destruct (mem n std_inlines); discriminate.
Qed.

Theorem std_parse_print ns : wf_nodes std_kind ns = true -> parse_template std_kind (print_nodes ns) = Ok ns.
Proof. apply parse_print_template, std_reg_ok. Qed.
