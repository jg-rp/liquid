(* LruSpec_Proofs.v -- what the stamped OrderedDict machine denotes as an abstract bounded LRU map (size, least
   recently used entry, listing, the effect of a use), the invariant of reachable states, the entries read against
   the history, snapshot listings of the thread-safe class. *)
From LiquidVerif Require Import Prelude Lru Lru_Proofs LruSpec.
From Coq Require Import Sorted.

(* ------------------------------------------------------------------ lookups in a list with one entry per key *)
Lemma keys_cons k v t l : map fst (erase_items ((k, v, t) :: l)) = k :: map fst (erase_items l).
Proof. reflexivity. Qed.

Lemma glookup_in k v t l : NoDup (map fst (erase_items l)) -> (In (k, v, t) l <-> glookup k l = Some (v, t)).
Proof.
  induction l as [|[[k2 v2] t2] l IH]; simpl; [intros _; split; [tauto|discriminate]|].
  intro Hnd. inversion Hnd as [|? ? Hnin Hnd']; subst. destruct (N.eqb_spec k k2) as [->|Hn].
  - split.
    + intros [E|Hin]; [inversion E; reflexivity|]. exfalso. apply Hnin.
      change k2 with (fst (fst (k2, v, t))). unfold erase_items. rewrite map_map. apply in_map with (f := fun x => fst (fst x)). exact Hin.
    + intro E. inversion E; subst. left. reflexivity.
  - rewrite <- (IH Hnd'). split; [intros [E|Hin]; [inversion E; congruence|exact Hin]|intro Hin; right; exact Hin].
Qed.

(* ------------------------------------------------------------------ size, least recently used entry, listing *)
Lemma card_of g : NoDup (map fst (erase_items (gitems g))) -> card (amap_of g) (length (gitems g)).
Proof.
  intro Hnd. exists (map fst (erase_items (gitems g))). split; [exact Hnd|]. split.
  - unfold erase_items. rewrite !map_length. reflexivity.
  - intro k. unfold amap_of. destruct (glookup k (gitems g)) eqn:E.
    + split; [discriminate | intros _; eapply glookup_some_in, E].
    + apply glookup_none in E. split; [intro H; destruct (E H) | congruence].
Qed.

Lemma oldest_of g k0 v0 t0 rest :
  RInv g -> gitems g = (k0, v0, t0) :: rest -> oldest (amap_of g) k0.
Proof.
  intros (Hnd & Hs & _) E. exists v0, t0. unfold amap_of. rewrite E in *. split; [simpl; rewrite N.eqb_refl; reflexivity|].
  intros k' v' t' Hne Hk'. apply (glookup_in k' v' t' _ Hnd) in Hk'. destruct Hk' as [Heq|Hin]; [inversion Heq; congruence|].
  apply StronglySorted_inv in Hs. destruct Hs as [_ Hall]. rewrite Forall_forall in Hall. apply Hall.
  change t' with (snd (k', v', t')). apply in_map, Hin.
Qed.

(* an order on one projection of a list, read as an order on another *)
Lemma sorted_map {A B C} (f : A -> B) (g : A -> C) (R : B -> B -> Prop) (R' : C -> C -> Prop) l :
  StronglySorted R (map f l) -> (forall x y, In x l -> In y l -> R (f x) (f y) -> R' (g x) (g y)) ->
  StronglySorted R' (map g l).
Proof.
  induction l as [|a l IH]; simpl; intros Hs Hw; [constructor|].
  apply StronglySorted_inv in Hs. destruct Hs as [Hs Hall]. constructor.
  - apply IH; [exact Hs|]. intros x y Hx Hy. apply Hw; right; assumption.
  - rewrite Forall_forall in Hall |- *. intros c Hc. apply in_map_iff in Hc. destruct Hc as (y & <- & Hy).
    apply Hw; [left; reflexivity|right; exact Hy|apply Hall, in_map, Hy].
Qed.

Lemma listing_of g : RInv g -> listing (amap_of g) (rev (erase_items (gitems g))).
Proof.
  intros (Hnd & Hs & _). unfold listing, amap_of. repeat split.
  - rewrite map_rev. apply NoDup_rev, Hnd.
  - intro H. apply in_rev in H. unfold erase_items in H. apply in_map_iff in H. destruct H as [[[k2 v2] t2] [E Hin]].
    simpl in E. inversion E; subst. exists t2. apply (glookup_in k v t2 _ Hnd), Hin.
  - intros [t H]. apply in_rev. rewrite rev_involutive. apply (glookup_in k v t _ Hnd) in H.
    unfold erase_items. change (k, v) with (fst (k, v, t)). apply in_map, H.
  - (* later in the list = stamped later = newer; every entry is what a lookup of its key finds *)
    apply sorted_rev, (sorted_map snd fst lt); [exact Hs|].
    intros [[k v] t] [[k' v'] t'] Hx Hy Hlt. exists t', t. simpl.
    repeat split; [apply (glookup_in _ _ _ _ Hnd), Hy|apply (glookup_in _ _ _ _ Hnd), Hx|exact Hlt].
Qed.

(* ------------------------------------------------------------------ a use, in terms of the map *)
Lemma same_refl m : same m m.
Proof. intro k. reflexivity. Qed.

Lemma touch_ok l k v c : same (touch (fun x => glookup x l) k v c) (fun x => glookup x (gremove k l ++ [(k, v, c)])).
Proof.
  intro k'. rewrite glookup_snoc, glookup_gremove. unfold touch.
  destruct (N.eqb k' k); [reflexivity|]. destruct (glookup k' l); reflexivity.
Qed.

(* ------------------------------------------------------------------ the invariant of reachable states *)
Lemma rinv_split g : RInv g <-> GInv g /\ 1 <= gcap g /\ length (gitems g) <= gcap g.
Proof. unfold RInv, GInv, ordered, times. tauto. Qed.

Theorem gstep_rinv g o : RInv g -> RInv (fst (gstep g o)).
Proof.
  intro H. apply rinv_split in H. destruct H as (Hg & Hc & Hl). apply rinv_split. rewrite gstep_cap.
  split; [apply gstep_inv, Hg | split; [exact Hc | apply gstep_length; assumption]].
Qed.

Theorem reachable_rinv n ops : 1 <= n -> RInv (gfinal (gempty n) ops).
Proof.
  intro Hn. apply (fold_left_inv _ RInv); [intros g o; apply gstep_rinv|].
  repeat split; simpl; try constructor; lia.
Qed.

(* ------------------------------------------------------------------ the entries against the history *)
(* The entries after an operation, read off the entries before: a successful lookup and a store stamp their key with
   the clock, a deletion removes its key, nothing else changes.  A store may evict as well, so the machine's entries
   are among these, not all of them. *)
Definition after (m : amap) (c : nat) (o : op) : amap :=
  match o with
  | Get k | GetD k _ | GetN k => match m k with Some (v, _) => touch m k v c | None => m end
  | Set_ k v => touch m k v c
  | Del k => drop m k
  | _ => m
  end.

Lemma gstep_after g o k' x :
  NoDup (map fst (erase_items (gitems g))) ->
  amap_of (fst (gstep g o)) k' = Some x -> after (amap_of g) (clock g) o k' = Some x.
Proof.
  intro Hnd. unfold amap_of.
  destruct o as [k|k d|k|k v|k| | | | | |]; simpl; try trivial.
  1-3: destruct (glookup k (gitems g)) as [[v t]|]; simpl; [rewrite (touch_ok _ k v _ k')|]; trivial.
  - destruct (glookup k (gitems g)) as [[v0 t]|] eqn:E; simpl; [rewrite (touch_ok _ k v _ k'); trivial|].
    unfold touch. destruct (N.eqb_spec k' k) as [->|Hne].
    + destruct (Nat.leb (gcap g) (length (gitems g))); simpl; rewrite glookup_snoc, N.eqb_refl.
      * rewrite (glookup_tl_none _ _ E). trivial.
      * rewrite E. trivial.
    + destruct (Nat.leb (gcap g) (length (gitems g))); simpl; rewrite glookup_snoc_other by exact Hne; [|trivial].
      destruct (gitems g) as [|[[k0 v0] t0] rest]; [discriminate|]. simpl tl.
      rewrite (glookup_tl k0 v0 t0 rest k' Hnd). destruct (N.eqb k' k0); [discriminate | trivial].
  - destruct (glookup k (gitems g)) as [[v t]|] eqn:E; simpl.
    + rewrite glookup_gremove. trivial.
    + unfold drop. destruct (N.eqb_spec k' k) as [->|]; [congruence | trivial].
Qed.

(* every entry carries the value of the most recent store to its key and the index of the most recent use of it *)
Definition HInv (hr : list op) (m : amap) : Prop :=
  forall k v t, m k = Some (v, t) -> last_use hr k = Some t /\ last_stored hr k = Some v.

(* a lookup: the key looked up, if present, is stamped now and keeps its value; every other key is untouched *)
Lemma hinv_lookup hr m k : HInv hr m ->
  forall k' v' t', (match m k with Some (v, _) => touch m k v (length hr) | None => m end) k' = Some (v', t') ->
  (if N.eqb k' k then Some (length hr) else last_use hr k') = Some t' /\ last_stored hr k' = Some v'.
Proof.
  intros H k' v' t'. unfold touch. destruct (N.eqb_spec k' k) as [->|Hne].
  - destruct (m k) as [[v t]|] eqn:E; [|congruence]. rewrite N.eqb_refl. intros [= <- <-].
    split; [reflexivity|apply (H k v t E)].
  - apply N.eqb_neq in Hne. destruct (m k) as [[v t]|]; [rewrite Hne|]; apply H.
Qed.

Lemma hinv_after hr m o : HInv hr m -> HInv (o :: hr) (after m (length hr) o).
Proof.
  intros H k' v' t'. destruct o as [k|k d|k|k v|k| | | | | |]; simpl; try apply H.
  1-3: apply hinv_lookup, H.
  - unfold touch. destruct (N.eqb k' k); [intros [= <- <-]; split; reflexivity | apply H].
  - unfold drop. destruct (N.eqb k' k); [discriminate | apply H].
Qed.

(* after any history from a fresh cache, whatever its capacity *)
Lemma history_reachable n ops :
  clock (gfinal (gempty n) ops) = length ops /\ HInv (rev ops) (amap_of (gfinal (gempty n) ops)).
Proof.
  induction ops as [|o ops [Hc H]] using rev_ind; [split; [reflexivity | intros k v t; discriminate]|].
  rewrite gfinal_snoc, gstep_clock, rev_app_distr, app_length, Hc. split; [simpl; lia|].
  intros k v t E. apply gstep_after in E; [|apply gfinal_inv].
  rewrite Hc, <- rev_length in E. exact (hinv_after _ _ _ H k v t E).
Qed.

(* ------------------------------------------------------------------ thread-safe class: a listing is a snapshot *)
(* once a thread has begun a listing, what it is handed -- however the schedule interleaves stores, deletions and lookups
   of other threads, or its own -- is exactly the items as they were when the listing method ran, most recent first *)
Lemma snapshot_yields_gen tid : forall acts s rest,
  iter_lookup tid (titers s) = Some (ISnap rest) -> no_begin tid acts = true ->
  yields_of tid acts (trun Snapshot s acts) = firstn (nexts tid acts) rest.
Proof.
  induction acts as [|a acts IH]; intros s rest Hit Hnb; [reflexivity|].
  simpl trun. destruct a as [t o|t|t].
  - pose proof (tstep_iter_other Snapshot s (Call t o) tid I) as Hk.
    destruct (tstep Snapshot s (Call t o)) as [s' r]. simpl in Hk |- *. apply IH; [rewrite Hk; exact Hit|exact Hnb].
  - simpl in Hnb. apply andb_prop in Hnb. destruct Hnb as [Hne Hnb]. apply Bool.negb_true_iff, Nat.eqb_neq in Hne.
    pose proof (tstep_iter_other Snapshot s (ListBegin t) tid Hne) as Hk.
    destruct (tstep Snapshot s (ListBegin t)) as [s' r]. simpl in Hk |- *. apply IH; [rewrite Hk; exact Hit|exact Hnb].
  - destruct (Nat.eqb_spec t tid) as [->|Hne].
    + (* the thread's own next: the head of what is left of its copy *)
      simpl. rewrite Hit, Nat.eqb_refl. destruct rest as [|kv rest']; simpl.
      * rewrite (IH _ [] Hit Hnb). destruct (nexts tid acts); reflexivity.
      * f_equal. apply IH; [simpl; apply iter_lookup_set_same|exact Hnb].
    + pose proof (tstep_iter_other Snapshot s (ListNext t) tid Hne) as Hk.
      destruct (tstep Snapshot s (ListNext t)) as [s' r]. simpl in Hk |- *.
      apply Nat.eqb_neq in Hne. rewrite Hne. destruct r; apply IH; try (rewrite Hk; exact Hit); exact Hnb.
Qed.

Theorem snapshot_listing_is_snapshot tid s acts :
  no_begin tid acts = true ->
  yields_of tid (ListBegin tid :: acts) (trun Snapshot s (ListBegin tid :: acts)) =
  firstn (nexts tid acts) (rev (items (tc s))).
Proof.
  intro Hnb. simpl. apply snapshot_yields_gen; [|exact Hnb]. simpl. apply iter_lookup_set_same.
Qed.

(* every public method of the thread-safe class -- all eleven, c.get(k) without a default included -- is one atomic
   section: a call is ONE step of the plain cache on the current contents, returns that step's result and touches no
   iterator *)
Theorem call_is_atomic m s tid o :
  tc (fst (tstep m s (Call tid o))) = fst (step (tc s) o) /\
  snd (tstep m s (Call tid o)) = TOut (snd (step (tc s) o)) /\
  titers (fst (tstep m s (Call tid o))) = titers s.
Proof. simpl. destruct (step (tc s) o); repeat split. Qed.
